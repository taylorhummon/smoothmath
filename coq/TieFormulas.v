(** [_numeric_partial_formula] of the unary classes, [_numeric_partial_formula_left/_right] of Divide
    and Power and the [_value_formula]s (GeneratedMath.v) compute the model's formulas (Forward.v).
    Their calls to math_functions are the model's mf_* functions, which TieMath.v ties to their own
    source. *)
From Coq Require Import ZArith List Bool String.
From SM Require Import Num Syntax Outcome MathFun Eval Forward PyAst GeneratedMath TieTactics TieMath.
Import ListNotations.
Open Scope string_scope.

(* The parameters of a translated formula are the multiplier [m], then what the body reads, in the
   order in which it first reads it: the parameter stored in the node ([n], [b]) and the values it
   gets from [_evaluate(point)]: [iv] for the inner expression, [lv] and [rv] for the left and the
   right one, [sv] for the node itself. *)

Section Tie.
  Context {T : Type} (N : NumOps T).

  Lemma formula_Negation_tied : forall p a m,
    call N gen_formula_Negation [VT m] = ret (unary_formula N p (Neg a) m).
  Proof. reflexivity. Qed.

  Lemma formula_Reciprocal_tied : forall p a m iv, eval N p a = Val iv ->
    call N gen_formula_Reciprocal [VT m; VT iv] = ret (unary_formula N p (Recip a) m).
  Proof.
    intros p a m iv H. ev. rewrite H.
    destruct (mf_nth_power N iv 2) as [sq| | |]; ev; [|reflexivity..].
    destruct (mf_divide N m sq); reflexivity.
  Qed.

  Lemma formula_Sine_tied : forall p a m iv, eval N p a = Val iv ->
    call N gen_formula_Sine [VT m; VT iv] = ret (unary_formula N p (Sin a) m).
  Proof. intros p a m iv H. ev. rewrite H. destruct (mf_cosine N iv); reflexivity. Qed.

  Lemma formula_Cosine_tied : forall p a m iv, eval N p a = Val iv ->
    call N gen_formula_Cosine [VT m; VT iv] = ret (unary_formula N p (Cos a) m).
  Proof. intros p a m iv H. ev. rewrite H. destruct (mf_sine N iv); reflexivity. Qed.

  Lemma formula_NthPower_tied : forall p a n m iv, eval N p a = Val iv ->
    call N gen_formula_NthPower [VT m; VZ (Zpos n); VT iv] = ret (unary_formula N p (NthPow a n) m).
  Proof.
    intros p a n m iv H.
    destruct n as [q|q|]; ev; rewrite ?H; try destruct (mf_nth_power N iv _); reflexivity.
  Qed.

  Lemma formula_NthRoot_tied : forall p a n m sv, eval N p (NthRoot a n) = Val sv ->
    call N gen_formula_NthRoot [VT m; VZ (Zpos n); VT sv] = ret (unary_formula N p (NthRoot a n) m).
  Proof.
    intros p a n m sv H.
    destruct n as [q|q|]; ev; rewrite ?H; [| |reflexivity].
    all: destruct (mf_nth_power N sv _) as [w| | |]; ev; [|reflexivity..].
    all: destruct (mf_divide N m _); reflexivity.
  Qed.

  Lemma formula_Exponential_tied : forall p a b m sv, eval N p (Exp a b) = Val sv ->
    call N gen_formula_Exponential [VT m; VT b; VT sv] = ret (unary_formula N p (Exp a b) m).
  Proof.
    intros p a b m sv H. ev. rewrite H.
    destruct (neqb N b (nofZ N 1)); [reflexivity|].
    destruct (neqb N b (n_e N)); [reflexivity|].
    destruct (mf_logarithm N b (n_e N)); reflexivity.
  Qed.

  Lemma formula_Logarithm_tied : forall p a b m iv, eval N p a = Val iv ->
    call N gen_formula_Logarithm [VT m; VT iv; VT b] = ret (unary_formula N p (Log a b) m).
  Proof.
    intros p a b m iv H. ev. rewrite H.
    destruct (neqb N b (n_e N)).
    - destruct (mf_divide N m iv); reflexivity.
    - destruct (mf_logarithm N b (n_e N)) as [lb| | |]; ev; [|reflexivity..].
      destruct (mf_divide N m _); reflexivity.
  Qed.

  Lemma formula_left_Divide_tied : forall p a b m rv, eval N p b = Val rv ->
    call N gen_formula_left_Divide [VT m; VT rv] = ret (divide_formula_left N p a b m).
  Proof. intros p a b m rv H. ev. rewrite H. destruct (mf_divide N m rv); reflexivity. Qed.

  Lemma formula_right_Divide_tied : forall p a b m lv rv, eval N p a = Val lv -> eval N p b = Val rv ->
    call N gen_formula_right_Divide [VT m; VT lv; VT rv] = ret (divide_formula_right N p a b m).
  Proof.
    intros p a b m lv rv Ha Hb. ev. rewrite Ha, Hb.
    destruct (mf_nth_power N rv 2) as [sq| | |]; ev; [|reflexivity..].
    destruct (mf_divide N lv sq); reflexivity.
  Qed.

  Lemma formula_left_Power_tied : forall p a b m lv rv, eval N p a = Val lv -> eval N p b = Val rv ->
    call N gen_formula_left_Power [VT m; VT lv; VT rv] = ret (power_formula_left N p a b m).
  Proof.
    intros p a b m lv rv Ha Hb. ev. rewrite Ha, Hb.
    destruct (mf_power N lv _); reflexivity.
  Qed.

  Lemma formula_right_Power_tied : forall p a b m lv sv,
    eval N p a = Val lv -> eval N p (Power a b) = Val sv ->
    call N gen_formula_right_Power [VT m; VT lv; VT sv] = ret (power_formula_right N p a b m).
  Proof.
    intros p a b m lv sv Ha Hs. ev. rewrite Ha, Hs.
    destruct (mf_logarithm N lv (n_e N)); reflexivity.
  Qed.

  Lemma value_Minus_tied : forall x y, call N gen_value_Minus [VT x; VT y] = ret (Val (mf_minus N x y)).
  Proof. reflexivity. Qed.
  Lemma value_Negation_tied : forall x, call N gen_value_Negation [VT x] = ret (Val (mf_negation N x)).
  Proof. reflexivity. Qed.
  Lemma value_Divide_tied : forall x y, call N gen_value_Divide [VT x; VT y] = ret (mf_divide N x y).
  Proof. intros. ev. destruct (mf_divide N x y); reflexivity. Qed.
  Lemma value_Reciprocal_tied : forall x, call N gen_value_Reciprocal [VT x] = ret (mf_reciprocal N x).
  Proof. intros. ev. destruct (mf_reciprocal N x); reflexivity. Qed.
  Lemma value_Power_tied : forall x y, call N gen_value_Power [VT x; VT y] = ret (mf_power N x y).
  Proof. intros. ev. destruct (mf_power N x y); reflexivity. Qed.
  Lemma value_NthPower_tied : forall x n, call N gen_value_NthPower [VT x; VZ (Zpos n)] = ret (mf_nth_power N x n).
  Proof. intros. ev. destruct (mf_nth_power N x n); reflexivity. Qed.
  Lemma value_NthRoot_tied : forall x n, call N gen_value_NthRoot [VT x; VZ (Zpos n)] = ret (mf_nth_root N x n).
  Proof. intros. ev. destruct (mf_nth_root N x n); reflexivity. Qed.
  Lemma value_Exponential_tied : forall x b, call N gen_value_Exponential [VT x; VT b] = ret (mf_exponential N x b).
  Proof. intros. ev. destruct (mf_exponential N x b); reflexivity. Qed.
  Lemma value_Logarithm_tied : forall x b, call N gen_value_Logarithm [VT x; VT b] = ret (mf_logarithm N x b).
  Proof. intros. ev. destruct (mf_logarithm N x b); reflexivity. Qed.
  Lemma value_Cosine_tied : forall x, call N gen_value_Cosine [VT x] = ret (mf_cosine N x).
  Proof. intros. ev. destruct (mf_cosine N x); reflexivity. Qed.
  Lemma value_Sine_tied : forall x, call N gen_value_Sine [VT x] = ret (mf_sine N x).
  Proof. intros. ev. destruct (mf_sine N x); reflexivity. Qed.
  Lemma value_star_tied : gen_value_star = [("Add", "add"); ("Multiply", "multiply")].
  Proof. reflexivity. Qed.
End Tie.
