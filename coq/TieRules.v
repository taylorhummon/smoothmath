(** Each [_reduce_*] method (its translated body in GeneratedSym.v, run by [SymAst.scall] on a node
    of its class) returns what the rule of that name in Rules.v returns; trying the methods a class
    lists in [_reducers], in order, is [apply_reducers] ([reducer_pass_tied]).  For every number
    interface, without hypotheses. *)
From Coq Require Import ZArith List Bool String.
From SM Require Import Num Syntax MathFun Rules SymAst SymLemmas SymRun Generated GeneratedSym.
From SM.proofs Require Import SyntaxFacts.
Import ListNotations.
Open Scope string_scope.
Open Scope list_scope.

Section Tie.
  Context {T : Type} (N : NumOps T).
  Variable oracle : string -> list (val (T:=T)) -> option (val (T:=T)).
  Notation E := (expr T).

  Definition run (f : sfun) (e : E) : option (option E) := as_reduced (scall N oracle f (VE e) []).

  Definition computes (g : sfun) (rule : E -> option E) (e : E) : Prop := run g e = Some (rule e).

  (** ** Rules that look at one operand *)
  Local Hint Unfold computes run : scall.

  Lemma reduce_minus_to_sum_with_negation_tied : forall a b,
    computes gen_sym_Minus_reduce_minus_to_sum_with_negation reduce_minus_to_sum_with_negation (Minus a b).
  Proof. reflexivity. Qed.

  Lemma reduce_divide_to_multiplying_with_reciprocal_tied : forall a b,
    computes gen_sym_Divide_reduce_divide_to_multiplying_with_reciprocal reduce_divide_to_multiplying_with_reciprocal (Divide a b).
  Proof. reflexivity. Qed.

  Lemma reduce_negation_of_negation_tied : forall a,
    computes gen_sym_Negation_reduce_negation_of_negation reduce_negation_of_negation (Neg a).
  Proof. destruct a; reflexivity. Qed.

  Lemma reduce_reciprocal_of_reciprocal_tied : forall a,
    computes gen_sym_Reciprocal_reduce_reciprocal_of_reciprocal reduce_reciprocal_of_reciprocal (Recip a).
  Proof. destruct a; reflexivity. Qed.

  Lemma reduce_reciprocal_of_negation_tied : forall a,
    computes gen_sym_Reciprocal_reduce_reciprocal_of_negation reduce_reciprocal_of_negation (Recip a).
  Proof. destruct a; reflexivity. Qed.

  Lemma reduce_u_to_the_one_tied : forall a b,
    computes gen_sym_Power_reduce_u_to_the_one (reduce_u_to_the_one N) (Power a b).
  Proof. destruct b; try reflexivity. run_method. destruct (neqb N c _); reflexivity. Qed.

  Lemma reduce_u_to_the_zero_tied : forall a b,
    computes gen_sym_Power_reduce_u_to_the_zero (reduce_u_to_the_zero N) (Power a b).
  Proof. destruct b; try reflexivity. run_method. destruct (neqb N c _); reflexivity. Qed.

  Lemma reduce_one_to_the_u_tied : forall a b,
    computes gen_sym_Power_reduce_one_to_the_u (reduce_one_to_the_u N) (Power a b).
  Proof. destruct a; try reflexivity. run_method. destruct (neqb N c _); reflexivity. Qed.

  Lemma reduce_u_to_the_n_at_least_two_tied : forall a b,
    computes gen_sym_Power_reduce_u_to_the_n_at_least_two (reduce_u_to_the_n_at_least_two N) (Power a b).
  Proof.
    destruct b; try reflexivity. run_method. destruct (nint N c) as [[|p|p]|]; try reflexivity. ev_sym.
    destruct (Z.leb 2 (Zpos p)); reflexivity.
  Qed.

  Lemma reduce_u_to_the_negative_one_tied : forall a b,
    computes gen_sym_Power_reduce_u_to_the_negative_one (reduce_u_to_the_negative_one N) (Power a b).
  Proof. destruct b; try reflexivity. run_method. destruct (neqb N c _); reflexivity. Qed.

  Lemma reduce_power_with_constant_base_tied : forall a b,
    computes gen_sym_Power_reduce_power_with_constant_base (reduce_power_with_constant_base N) (Power a b).
  Proof.
    destruct a; try reflexivity. run_method.
    destruct (nltb N _ c); [destruct (neqb N c _)|]; reflexivity.
  Qed.

  Lemma reduce_power_of_power_tied : forall a b,
    computes gen_sym_Power_reduce_power_of_power reduce_power_of_power (Power a b).
  Proof. destruct a; reflexivity. Qed.

  Lemma reduce_u_to_the_negation_of_v_tied : forall a b,
    computes gen_sym_Power_reduce_u_to_the_negation_of_v reduce_u_to_the_negation_of_v (Power a b).
  Proof. destruct b; reflexivity. Qed.

  Lemma reduce_reciprocal_u_to_the_v_tied : forall a b,
    computes gen_sym_Power_reduce_reciprocal_u__to_the_v reduce_reciprocal_u_to_the_v (Power a b).
  Proof. destruct a; reflexivity. Qed.

  Lemma reduce_nth_power_where_n_is_one_tied : forall a n,
    computes gen_sym_NthPower_reduce_nth_power_where_n_is_one reduce_nth_power_where_n_is_one (NthPow a n).
  Proof. destruct n; reflexivity. Qed.

  Lemma quot_pos : forall a g : positive, (g | a)%positive -> exists q, (Zpos a / Zpos g)%Z = Zpos q.
  Proof. intros a g [k ->]. exists k. rewrite Pos2Z.inj_mul, Z.div_mul by discriminate. reflexivity. Qed.

  Lemma reduce_nth_power_of_mth_root_tied : forall a n,
    computes gen_sym_NthPower_reduce_nth_power_of_mth_root reduce_nth_power_of_mth_root (NthPow a n).
  Proof.
    intros a n. destruct a as [| | | | | | | | | | | |a m| |]; try reflexivity.
    destruct (quot_pos _ _ (Pos.gcd_divide_l m n)) as [qm Hm], (quot_pos _ _ (Pos.gcd_divide_r m n)) as [qn Hn].
    run_method. destruct (Pos.eqb m n); [reflexivity|].
    ev_sym. destruct (Pos.eqb (Pos.gcd m n) 1); [reflexivity|].
    ev_sym. rewrite Hm, Hn. reflexivity.
  Qed.

  Lemma reduce_nth_power_of_mth_power_tied : forall a n,
    computes gen_sym_NthPower_reduce_nth_power_of_mth_power reduce_nth_power_of_mth_power (NthPow a n).
  Proof. destruct a; reflexivity. Qed.

  Lemma reduce_nth_power_of_negation_tied : forall a n,
    computes gen_sym_NthPower_reduce_nth_power_of_negation reduce_nth_power_of_negation (NthPow a n).
  Proof. destruct a; try reflexivity. intros n. run_method. destruct (Z.even _); reflexivity. Qed.

  Lemma reduce_nth_power_of_reciprocal_tied : forall a n,
    computes gen_sym_NthPower_reduce_nth_power_of_reciprocal reduce_nth_power_of_reciprocal (NthPow a n).
  Proof. destruct a; reflexivity. Qed.

  Lemma reduce_nth_power_of_exponential_tied : forall a n,
    computes gen_sym_NthPower_reduce_nth_power_of_exponential (reduce_nth_power_of_exponential N) (NthPow a n).
  Proof. destruct a; reflexivity. Qed.

  Lemma reduce_nth_root_where_n_is_one_tied : forall a n,
    computes gen_sym_NthRoot_reduce_nth_root_where_n_is_one reduce_nth_root_where_n_is_one (NthRoot a n).
  Proof. destruct n; reflexivity. Qed.

  Lemma reduce_nth_root_of_mth_power_tied : forall a n,
    computes gen_sym_NthRoot_reduce_nth_root_of_mth_power reduce_nth_root_of_mth_power (NthRoot a n).
  Proof. destruct a; reflexivity. Qed.

  Lemma reduce_nth_root_of_mth_root_tied : forall a n,
    computes gen_sym_NthRoot_reduce_nth_root_of_mth_root reduce_nth_root_of_mth_root (NthRoot a n).
  Proof. destruct a; reflexivity. Qed.

  Lemma reduce_odd_nth_root_of_negation_tied : forall a n,
    computes gen_sym_NthRoot_reduce_odd_nth_root_of_negation reduce_odd_nth_root_of_negation (NthRoot a n).
  Proof. destruct a; try reflexivity. intros n. run_method. destruct (Z.odd _); reflexivity. Qed.

  Lemma reduce_nth_root_of_reciprocal_tied : forall a n,
    computes gen_sym_NthRoot_reduce_nth_root_of_reciprocal reduce_nth_root_of_reciprocal (NthRoot a n).
  Proof. destruct a; reflexivity. Qed.

  Lemma reduce_exponential_of_logarithm_tied : forall a b,
    computes gen_sym_Exponential_reduce_exponential_of_logarithm (reduce_exponential_of_logarithm N) (Exp a b).
  Proof. destruct a; try reflexivity. intros b. run_method. destruct (neqb N b _); reflexivity. Qed.

  Lemma reduce_exponential_of_negation_tied : forall a b,
    computes gen_sym_Exponential_reduce_exponential_of_negation reduce_exponential_of_negation (Exp a b).
  Proof. destruct a; reflexivity. Qed.

  Lemma reduce_logarithm_of_exponential_tied : forall a b,
    computes gen_sym_Logarithm_reduce_logarithm_of_exponential (reduce_logarithm_of_exponential N) (Log a b).
  Proof. destruct a; try reflexivity. intros b. run_method. destruct (neqb N b _); reflexivity. Qed.

  Lemma reduce_logarithm_of_reciprocal_tied : forall a b,
    computes gen_sym_Logarithm_reduce_logarithm_of_reciprocal reduce_logarithm_of_reciprocal (Log a b).
  Proof. destruct a; reflexivity. Qed.

  Lemma reduce_logarithm_of_nth_power_tied : forall a b,
    computes gen_sym_Logarithm_reduce_logarithm_of_nth_power (reduce_logarithm_of_nth_power N) (Log a b).
  Proof. destruct a; try reflexivity. intros b. run_method. destruct (Z.odd _); reflexivity. Qed.

  Lemma reduce_cosine_of_negation_tied : forall a,
    computes gen_sym_Cosine_reduce_cosine_of_negation reduce_cosine_of_negation (Cos a).
  Proof. destruct a; reflexivity. Qed.

  Lemma reduce_sine_of_negation_tied : forall a,
    computes gen_sym_Sine_reduce_sine_of_negation reduce_sine_of_negation (Sin a).
  Proof. destruct a; reflexivity. Qed.

  (** ** Rules on the operand list of a sum or product
      The operand list [l] is a variable, so the body is run one statement at a time
      ([SymRun.result_*]).  [eval_ev] unfolds the interpreter only, as far as the loop over [l], which
      a SymLemmas lemma turns into the model's list function. *)
  Ltac start_body := apply result_call; [reflexivity|]; cbn -[result].
  Ltac eval_ev := lazy [ev slook attr ctor mfcall intop cmpv num_of option_map String.eqb Ascii.eqb Bool.eqb].

  Lemma is_cls_Const : forall e : E, is_cls "Constant" e = is_Const e. Proof. destruct e; reflexivity. Qed.
  Lemma is_cls_Add : forall e : E, is_cls "Add" e = is_Add e. Proof. destruct e; reflexivity. Qed.
  Lemma is_cls_Mul : forall e : E, is_cls "Multiply" e = is_Mul e. Proof. destruct e; reflexivity. Qed.
  Lemma is_cls_Neg : forall e : E, is_cls "Negation" e = is_Neg e. Proof. destruct e; reflexivity. Qed.
  Lemma is_cls_Recip : forall e : E, is_cls "Reciprocal" e = is_Recip e. Proof. destruct e; reflexivity. Qed.
  Lemma is_cls_NthPow : forall e : E, is_cls "NthPower" e = is_NthPow e. Proof. destruct e; reflexivity. Qed.
  Lemma is_cls_NthRoot : forall e : E, is_cls "NthRoot" e = is_NthRoot e. Proof. destruct e; reflexivity. Qed.
  Lemma is_cls_Exp : forall e : E, is_cls "Exponential" e = is_Exp e. Proof. destruct e; reflexivity. Qed.
  Lemma is_cls_Log : forall e : E, is_cls "Logarithm" e = is_Log e. Proof. destruct e; reflexivity. Qed.

  (* [C]: the node put on every operand *)
  Ltac distribute a C :=
    destruct a; try reflexivity; run_method;
    rewrite (comp_loop_map _ VE _ _ (fun e => VE (C e)) (fun _ => true)) by reflexivity;
    ev_sym; rewrite filter_true, app_nil_r, as_exprs_map; reflexivity.

  Lemma reduce_negation_of_sum_tied : forall a,
    computes gen_sym_Negation_reduce_negation_of_sum reduce_negation_of_sum (Neg a).
  Proof. intros a. distribute a (@Neg T). Qed.

  Lemma reduce_reciprocal_of_product_tied : forall a,
    computes gen_sym_Reciprocal_reduce_reciprocal_of_product reduce_reciprocal_of_product (Recip a).
  Proof. intros a. distribute a (@Recip T). Qed.

  (* [c]: the constant dropped (0 from a sum, 1 from a product) *)
  Ltac eliminate_constant c :=
    start_body;
    eapply result_assign;
      [eval_ev; rewrite (comp_loop_map _ VE _ _ VE (fun x => negb (is_const_eq N c x)));
       [reflexivity | intros a _; destruct a; reflexivity | reflexivity]|];
    eapply result_if; [eval_ev; rewrite !map_length, Z_of_nat_eqb; reflexivity | reflexivity|];
    apply result_return; eval_ev; rewrite app_nil_r, as_exprs_VE; reflexivity.

  Lemma reduce_sum_by_eliminating_zeros_tied : forall l,
    computes gen_sym_Add_reduce_sum_by_eliminating_zeros (reduce_sum_by_eliminating_zeros N) (Add l).
  Proof. intros l. eliminate_constant (n0 N). Qed.

  Lemma reduce_product_by_eliminating_ones_tied : forall l,
    computes gen_sym_Multiply_reduce_product_by_eliminating_ones (reduce_product_by_eliminating_ones N) (Mul l).
  Proof. intros l. eliminate_constant (n1 N). Qed.

  Lemma reduce_product_when_multiplying_by_zero_tied : forall l,
    computes gen_sym_Multiply_reduce_product_when_multiplying_by_zero (reduce_product_when_multiplying_by_zero N) (Mul l).
  Proof.
    intros l. start_body.
    eapply result_if; [|reflexivity|reflexivity].
    eval_ev. rewrite (anyall_map false _ VE _ (is_const_eq N (n0 N))); [reflexivity|].
    intros a _. destruct a; reflexivity.
  Qed.

  (* [isX]: the model's class test; [is_cls_X]: the lemma that isinstance(., X) computes it.  The
     cases of the model rule come first, while the goal is small. *)
  Ltac flatten l isX is_cls_X :=
    destruct (split_first isX l) as [[[before hit] after]|] eqn:Hs;
    [destruct (split_first_spec _ _ _ _ _ Hs) as [Hl Hhit]; destruct hit; try discriminate Hhit; subst l|];
    start_body;
    (eapply result_assign; [eval_ev; rewrite (find_first_split _ isX _ 0 is_cls_X); reflexivity|]);
    rewrite Hs; [|reflexivity];
    eapply result_if_case; [reflexivity|];
    eapply result_assign2; [reflexivity|];
    eapply result_assign; [reflexivity|];
    eapply result_assign; [eapply ev_slice_before; reflexivity|];
    eapply result_assign; [eapply ev_slice_after; reflexivity|];
    apply result_return; eval_ev; rewrite app_nil_r, <- !map_app, as_exprs_VE; reflexivity.

  Lemma reduce_by_flattening_nested_sums_tied : forall l,
    computes gen_sym_Add_reduce_by_flattening_nested_sums reduce_by_flattening_nested_sums (Add l).
  Proof. intros l. flatten l (@is_Add T) is_cls_Add. Qed.

  Lemma reduce_by_flattening_nested_products_tied : forall l,
    computes gen_sym_Multiply_reduce_by_flattening_nested_products reduce_by_flattening_nested_products (Mul l).
  Proof. intros l. flatten l (@is_Mul T) is_cls_Mul. Qed.

  Lemma reduce_product_by_eliminating_negations_tied : forall l,
    computes gen_sym_Multiply_reduce_product_by_eliminating_negations (reduce_product_by_eliminating_negations N) (Mul l).
  Proof.
    intros l. start_body.
    eapply result_assign2. { eval_ev. destruct (partition_VE _ _ l is_cls_Neg) as [-> ->]. reflexivity. }
    eapply result_assign. { eval_ev. rewrite map_length. reflexivity. }
    eapply result_if_case. { eval_ev. rewrite (Z_of_nat_eqb _ 0). reflexivity. }
    (* the model asks whether there is a negation, the body whether their number is 0 *)
    destruct (filter is_Neg l) as [|ng negs] eqn:Hn; [reflexivity|].
    eapply result_assign.
    { eval_ev. rewrite (comp_loop_all _ VE _ (fun e => VE (inner_of e))); [reflexivity|].
      intros a Ha. rewrite <- Hn in Ha. apply filter_In_true in Ha. destruct a; try discriminate Ha; reflexivity. }
    eapply result_if. { eval_ev. rewrite Z_even_of_nat. reflexivity. }
    - apply result_return. eval_ev.
      rewrite app_nil_r, (as_exprs_app _ _ _ _ (as_exprs_VE _) (as_exprs_map _ _ _)). reflexivity.
    - apply result_return. eval_ev.
      erewrite as_exprs_app by (apply as_exprs_VE || (apply as_exprs_app; [apply as_exprs_map | reflexivity])).
      reflexivity.
  Qed.

  (* for the comprehension [constant.value for constant in constants] *)
  Definition cval (e : E) : T := match e with Const c => c | _ => n0 N end.

  Lemma const_values_cval : forall l : list E, map cval (filter is_Const l) = const_values (filter is_Const l).
  Proof.
    induction l as [|a l IH]; [reflexivity|]. cbn [filter].
    destruct a; cbn [is_Const]; try exact IH. cbn [map const_values flat_map cval app]. f_equal. exact IH.
  Qed.

  Ltac consolidate_constants l :=
    start_body;
    eapply result_assign2; [eval_ev; destruct (partition_VE _ _ l is_cls_Const) as [-> ->]; reflexivity|];
    eapply result_if; [eval_ev; rewrite map_length, (Z_of_nat_leb _ 1); reflexivity | reflexivity|];
    eapply result_assign;
      [eval_ev; rewrite (comp_loop_all _ VE _ (fun e => VN (cval e)))
         by (intros a Ha; apply filter_In_true in Ha; destruct a; try discriminate Ha; reflexivity);
       eval_ev; rewrite app_nil_r, as_nums_map, const_values_cval; reflexivity|];
    apply result_return; eval_ev; erewrite as_exprs_app by (apply as_exprs_VE || reflexivity); reflexivity.

  Lemma reduce_sum_by_consolidating_constants_tied : forall l,
    computes gen_sym_Add_reduce_sum_by_consolidating_constants (reduce_sum_by_consolidating_constants N) (Add l).
  Proof. intros l. consolidate_constants l. Qed.

  Lemma reduce_product_by_consolidating_constants_tied : forall l,
    computes gen_sym_Multiply_reduce_product_by_consolidating_constants (reduce_product_by_consolidating_constants N) (Mul l).
  Proof. intros l. consolidate_constants l. Qed.

  (* [kf] reads the key of a node ([n] or [base]), [ij] injects keys into values, [ke] compares keys
     as [==] compares those values. *)
  Ltac consolidate_groups l is_cls_X ij ke kf :=
    start_body;
    eapply result_assign2; [eval_ev; destruct (partition_VE _ _ l is_cls_X) as [-> ->]; reflexivity|];
    eapply result_if; [eval_ev; rewrite map_length, (Z_of_nat_leb _ 1); reflexivity | reflexivity|];
    eapply result_assign;
      [eval_ev; rewrite (key_loop_map _ VE _ (fun a => ij (kf a)))
         by (intros a Ha; apply filter_In_true in Ha; destruct a; try discriminate Ha; reflexivity);
       eval_ev; rewrite (groups_of_embed N ke ij (fun a b => eq_refl (ke a b))); reflexivity|];
    eapply result_if;
      [eval_ev; rewrite map_map; cbn [snd];
       rewrite (anyall_map true _ (fun kv => VL (map VE (snd kv))) _ (fun kv => Nat.leb (List.length (snd kv)) 1))
         by (intros a _; eval_ev; rewrite map_length, (Z_of_nat_leb _ 1); reflexivity);
       reflexivity
      | reflexivity|];
    eapply result_assign;
      [eval_ev; rewrite (kv_loop_map _ _ (fun kv => ij (fst kv)) (fun kv => VL (map VE (snd kv))) _
                           (fun kv => (ij (fst kv), VL (map (fun x => VE (inner_of x)) (snd kv)))));
       [reflexivity|];
       intros [k vs] Hkv; eval_ev; rewrite (comp_loop_all _ VE _ (fun x => VE (inner_of x))); [reflexivity|];
       intros x Hx; apply (group_members _ _ _ _ _ _ _ _ Hkv), filter_In_true in Hx;
       destruct x; try discriminate Hx; reflexivity|];
    eapply result_assign;
      [eval_ev; erewrite (kv_loop_map _ _ (fun kv => ij (fst kv))); [reflexivity|];
       intros a _; eval_ev; rewrite app_nil_r, as_exprs_map; reflexivity|];
    apply result_return; eval_ev;
    rewrite app_nil_r, (as_exprs_app _ _ _ _ (as_exprs_VE _) (as_exprs_map _ _ _)); reflexivity.

  Lemma reduce_product_by_consolidating_nth_powers_tied : forall l,
    computes gen_sym_Multiply_reduce_product_by_consolidating_nth_powers reduce_product_by_consolidating_nth_powers (Mul l).
  Proof. intros l. consolidate_groups l is_cls_NthPow (fun n => @VZ T (Zpos n)) Pos.eqb (@pos_of_nth T). Qed.

  Lemma reduce_product_by_consolidating_nth_roots_tied : forall l,
    computes gen_sym_Multiply_reduce_product_by_consolidating_nth_roots reduce_product_by_consolidating_nth_roots (Mul l).
  Proof. intros l. consolidate_groups l is_cls_NthRoot (fun n => @VZ T (Zpos n)) Pos.eqb (@pos_of_nth T). Qed.

  Lemma reduce_product_by_consolidating_exponentials_tied : forall l,
    computes gen_sym_Multiply_reduce_product_by_consolidating_exponentials (reduce_product_by_consolidating_exponentials N) (Mul l).
  Proof. intros l. consolidate_groups l is_cls_Exp (@VN T) (neqb N) (base_of N). Qed.

  Lemma reduce_sum_by_consolidating_logarithms_tied : forall l,
    computes gen_sym_Add_reduce_sum_by_consolidating_logarithms (reduce_sum_by_consolidating_logarithms N) (Add l).
  Proof. intros l. consolidate_groups l is_cls_Log (@VN T) (neqb N) (base_of N). Qed.

  Fixpoint lookup_names (c : string) (t : list (string * list string)) : list string :=
    match t with
    | [] => []
    | (c', ns) :: r => if String.eqb c c' then ns else lookup_names c r
    end.

  Fixpoint lookup_body (c m : string) (t : list (string * string * sfun)) : option sfun :=
    match t with
    | [] => None
    | (c', m', f) :: r => if String.eqb c c' && String.eqb m m' then Some f else lookup_body c m r
    end.

  (* None = stuck (a missing body or a Python type error) *)
  Fixpoint gen_first_reducer (c : string) (names : list string) (e : E) : option (option (string * E)) :=
    match names with
    | [] => Some None
    | nm :: r =>
        match lookup_body c nm gen_sym_reducers with
        | None => None
        | Some f =>
            match run f e with
            | Some (Some e') => Some (Some (nm, e'))
            | Some None => gen_first_reducer c r e
            | None => None
            end
        end
    end.

  Definition gen_apply_reducers (e : E) : option (option (string * E)) :=
    gen_first_reducer (cls_of e) (lookup_names (cls_of e) gen_reducers) e.

  Definition tied (c : string) (e : E) (r : rule) : Prop :=
    exists g, lookup_body c (fst r) gen_sym_reducers = Some g /\ run g e = Some (snd r e).

  Lemma first_reducer_tied : forall c e (rules : list rule),
    Forall (tied c e) rules -> gen_first_reducer c (map fst rules) e = Some (first_reducer rules e).
  Proof.
    intros c e rules H. induction H as [|[nm f] rules (g & Hg & Hrun) _ IH]; [reflexivity|].
    cbn [map fst snd gen_first_reducer first_reducer] in *. rewrite Hg, Hrun.
    destruct (f e); [reflexivity | exact IH].
  Qed.

  Lemma tied_by : forall c nm g f e,
    lookup_body c nm gen_sym_reducers = Some g -> computes g f e -> tied c e (nm, f).
  Proof. intros c nm g f e Hg Hrun. exists g. split; assumption. Qed.

  Lemma reducer_names : forall e : E, lookup_names (cls_of e) gen_reducers = map fst (reducers_of N e).
  Proof. destruct e; reflexivity. Qed.

  Theorem reducer_pass_tied : forall e : E, gen_apply_reducers e = Some (apply_reducers N e).
  Proof.
    intros e. unfold gen_apply_reducers, apply_reducers.
    rewrite reducer_names. apply first_reducer_tied.
    destruct e; repeat (apply Forall_cons; [eapply tied_by; [reflexivity|] |]); try apply Forall_nil.
    - apply reduce_by_flattening_nested_sums_tied.
    - apply reduce_sum_by_eliminating_zeros_tied.
    - apply reduce_sum_by_consolidating_logarithms_tied.
    - apply reduce_sum_by_consolidating_constants_tied.
    - apply reduce_by_flattening_nested_products_tied.
    - apply reduce_product_when_multiplying_by_zero_tied.
    - apply reduce_product_by_eliminating_ones_tied.
    - apply reduce_product_by_eliminating_negations_tied.
    - apply reduce_product_by_consolidating_nth_powers_tied.
    - apply reduce_product_by_consolidating_nth_roots_tied.
    - apply reduce_product_by_consolidating_exponentials_tied.
    - apply reduce_product_by_consolidating_constants_tied.
    - apply reduce_minus_to_sum_with_negation_tied.
    - apply reduce_divide_to_multiplying_with_reciprocal_tied.
    - apply reduce_u_to_the_one_tied.
    - apply reduce_u_to_the_zero_tied.
    - apply reduce_one_to_the_u_tied.
    - apply reduce_u_to_the_n_at_least_two_tied.
    - apply reduce_u_to_the_negative_one_tied.
    - apply reduce_power_with_constant_base_tied.
    - apply reduce_power_of_power_tied.
    - apply reduce_u_to_the_negation_of_v_tied.
    - apply reduce_reciprocal_u_to_the_v_tied.
    - apply reduce_negation_of_negation_tied.
    - apply reduce_negation_of_sum_tied.
    - apply reduce_reciprocal_of_reciprocal_tied.
    - apply reduce_reciprocal_of_negation_tied.
    - apply reduce_reciprocal_of_product_tied.
    - apply reduce_sine_of_negation_tied.
    - apply reduce_cosine_of_negation_tied.
    - apply reduce_nth_power_where_n_is_one_tied.
    - apply reduce_nth_power_of_mth_root_tied.
    - apply reduce_nth_power_of_mth_power_tied.
    - apply reduce_nth_power_of_negation_tied.
    - apply reduce_nth_power_of_reciprocal_tied.
    - apply reduce_nth_power_of_exponential_tied.
    - apply reduce_nth_root_where_n_is_one_tied.
    - apply reduce_nth_root_of_mth_power_tied.
    - apply reduce_nth_root_of_mth_root_tied.
    - apply reduce_odd_nth_root_of_negation_tied.
    - apply reduce_nth_root_of_reciprocal_tied.
    - apply reduce_exponential_of_logarithm_tied.
    - apply reduce_exponential_of_negation_tied.
    - apply reduce_logarithm_of_exponential_tied.
    - apply reduce_logarithm_of_reciprocal_tied.
    - apply reduce_logarithm_of_nth_power_tied.
  Qed.
End Tie.
