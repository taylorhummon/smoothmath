(** SymAst's statement interpreter in continuation-passing form.  [sexec_block] returns the
    environment of a block that falls through and its caller matches on it, where evaluation sticks
    once a value depends on a variable of the proof; [sblock_k] hands the environment to the rest of
    the block directly, so one [lazy] runs a whole body. *)
From Coq Require Import ZArith List String.
From SM Require Import Num Syntax Synth Rules Normalize SymAst TieTactics.
Import ListNotations.

Section Run.
  Context {T : Type} (N : NumOps T).
  Variable oracle : string -> list (val (T:=T)) -> option (val (T:=T)).
  Notation senv := (senv (T:=T)).
  Notation sflow := (sflow (T:=T)).
  Notation ev := (ev N oracle).

  (* [ev] wraps the list a comprehension builds only after its loop, which hides the constructor of
     the value behind a loop over a list variable *)
  Definition evk (r : senv) (t : sx) (k : val -> option sflow) : option sflow :=
    match t with
    | XComp body x iter cond =>
        match ev r iter with
        | Some (VL items) =>
            match comp_loop (fun it => ev ((x, it) :: r) body)
                            (fun it => match cond with
                                       | None => Some true
                                       | Some c => match ev ((x, it) :: r) c with
                                                   | Some (VB b) => Some b
                                                   | _ => None
                                                   end
                                       end) items with
            | Some vs => k (VL vs)
            | None => None
            end
        | _ => None
        end
    | _ => match ev r t with Some v => k v | None => None end
    end.

  Fixpoint sexec_k (r : senv) (s : sstmt) (k : senv -> option sflow) {struct s} : option sflow :=
    let block :=
      fix block (r : senv) (l : list sstmt) (k : senv -> option sflow) {struct l} : option sflow :=
        match l with
        | [] => k r
        | s :: rest => sexec_k r s (fun r' => block r' rest k)
        end in
    match s with
    | SReturn t => match ev r t with Some v => Some (inr v) | None => None end
    | SIf c th el =>
        match ev r c with
        | Some (VB true) => block r th k
        | Some (VB false) => block r el k
        | _ => None
        end
    | SAssign x t => evk r t (fun v => k ((x, v) :: r))
    | SAssign2 x y t =>
        match ev r t with
        | Some (VTup a b) => k ((y, b) :: (x, a) :: r)
        | _ => None
        end
    | SPass => k r
    end.

  Fixpoint sblock_k (r : senv) (l : list sstmt) (k : senv -> option sflow) : option sflow :=
    match l with
    | [] => k r
    | s :: rest => sexec_k r s (fun r' => sblock_k r' rest k)
    end.

  Lemma evk_ok : forall r t k, evk r t k = match ev r t with Some v => k v | None => None end.
  Proof.
    intros r t k. destruct t; try reflexivity. cbn [evk SymAst.ev].
    destruct (ev r t2) as [[]|]; try reflexivity. destruct (comp_loop _ _ l); reflexivity.
  Qed.

  Lemma sexec_k_ok : forall s r k, sexec_k r s k = andthen (sexec N oracle r s) k.
  Proof.
    fix IH 1. intros s r k.
    (* [sexec_block_k], needed under the [fix] for the branches of an [if] *)
    assert (B : forall l r k, sblock_k r l k = andthen (sexec_block N oracle r l) k).
    { induction l as [|a l IHl]; intros r0 k0; [reflexivity|]. cbn [sblock_k sexec_block].
      rewrite IH. destruct (sexec N oracle r0 a) as [[r'|v]|]; [apply IHl | reflexivity..]. }
    destruct s; cbn [sexec_k sexec].
    - destruct (ev r t); reflexivity.
    - destruct (ev r c) as [[| | |[|]| | | | |]|]; try reflexivity; exact (B _ _ _).
    - rewrite evk_ok. destruct (ev r t); reflexivity.
    - destruct (ev r t) as [[]|]; reflexivity.
    - reflexivity.
  Qed.

  Lemma sexec_block_k : forall l r k, sblock_k r l k = andthen (sexec_block N oracle r l) k.
  Proof.
    induction l as [|a l IHl]; intros r k; cbn [sblock_k sexec_block]; [reflexivity|].
    rewrite sexec_k_ok. destruct (sexec N oracle r a) as [[r'|v]|]; [apply IHl | reflexivity..].
  Qed.

  Lemma sexec_block_run : forall l r, sexec_block N oracle r l = sblock_k r l (fun r' => Some (inl r')).
  Proof. intros. rewrite sexec_block_k. destruct (sexec_block N oracle r l) as [[|]|]; reflexivity. Qed.

  Lemma scall_run : forall f self args, List.length (s_params f) = List.length args ->
    scall N oracle f self args =
    match sblock_k (("self", self) :: combine (s_params f) args) (s_body f) (fun r' => Some (inl r')) with
    | Some (inr v) => Some v
    | Some (inl _) => Some VNone
    | None => None
    end.
  Proof.
    intros f self args H. unfold scall. rewrite H, PeanoNat.Nat.eqb_refl, sexec_block_run. reflexivity.
  Qed.

  Definition result (r : senv) (body : list sstmt) (k : senv -> option sflow) : option (option (expr T)) :=
    as_reduced (match sblock_k r body k with
                | Some (inr v) => Some v
                | Some (inl _) => Some VNone
                | None => None
                end).

  Lemma result_call : forall f self R,
    s_params f = [] -> result [("self", self)] (s_body f) (fun r' => Some (inl r')) = R ->
    as_reduced (scall N oracle f self []) = R.
  Proof. intros f self R Hp <-. rewrite scall_run, Hp; [reflexivity | rewrite Hp; reflexivity]. Qed.

  Lemma result_assign : forall r x t v rest k R,
    ev r t = Some v -> result ((x, v) :: r) rest k = R -> result r (SAssign x t :: rest) k = R.
  Proof. intros r x t v rest k R H <-. unfold result. cbn [sblock_k sexec_k]. rewrite evk_ok, H. reflexivity. Qed.

  Lemma result_assign2 : forall r x y t a b rest k R,
    ev r t = Some (VTup a b) -> result ((y, b) :: (x, a) :: r) rest k = R -> result r (SAssign2 x y t :: rest) k = R.
  Proof. intros r x y t a b rest k R H <-. unfold result. cbn [sblock_k sexec_k]. rewrite H. reflexivity. Qed.

  Lemma result_return : forall r t e rest k, ev r t = Some (VE e) -> result r (SReturn t :: rest) k = Some (Some e).
  Proof. intros r t e rest k H. unfold result. cbn [sblock_k sexec_k]. rewrite H. reflexivity. Qed.

  Lemma result_if_case : forall r c th el (b : bool) rest k R,
    ev r c = Some (VB b) -> result r (if b then th else el) (fun r' => sblock_k r' rest k) = R ->
    result r (SIf c th el :: rest) k = R.
  Proof. intros r c th el b rest k R H <-. unfold result. cbn [sblock_k sexec_k]. rewrite H. destruct b; reflexivity. Qed.

  Lemma result_if : forall r c th el (b : bool) rest k R1 R2,
    ev r c = Some (VB b) ->
    result r th (fun r' => sblock_k r' rest k) = Some R1 -> result r el (fun r' => sblock_k r' rest k) = Some R2 ->
    result r (SIf c th el :: rest) k = Some (if b then R1 else R2).
  Proof. intros r c th el b rest k R1 R2 H H1 H2. apply (result_if_case _ _ _ _ b _ _ _ H). destruct b; assumption. Qed.
End Run.

(** [ev_sym] keeps folded, besides [ev]'s list, what meets a variable of the proof.  [run_method]:
    the calling file puts in the database [scall] its definitions that stand between the statement
    and [scall]. *)
Ltac ev_sym :=
  with_strategy opaque
    [Z.of_nat Z.leb Z.div Z.even Z.odd Pos.gcd Pos.eqb Pos.mul
     map filter app List.length comp_loop enum_loop as_exprs without nat_of val_is
     inner_of is_Neg is_Recip omapM simplified_add simplified_multiply assemble_add assemble_multiply] ev.

Create HintDb scall.
Ltac run_method := intros; autounfold with scall; intros; rewrite scall_run by reflexivity; ev_sym.
