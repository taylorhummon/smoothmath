(** [__eq__], [__hash__], [__str__], [__repr__] and [_to_string] (GeneratedObj.v, run by ObjAst)
    compute [py_eq], [py_hash] and the show functions of Objects.v, for every number interface, every
    object of the method's class and every right-hand side of == (of the library or foreign).
    Equality is under [num_equiv N] (number comparison is an equivalence; proved for the reals): the
    source compares [other.x == self.x] where the model recurses as [eqb self.x other.x]. *)
From Coq Require Import ZArith List Bool String.
From SM Require Import Num Syntax Outcome Eval Objects SpecObjects ObjAst GeneratedObj TieTactics.
From SM.proofs Require Import EqHash.
Import ListNotations.
Open Scope string_scope.
Open Scope list_scope.

Section Tie.
  Context {T : Type} (N : NumOps T).
  (* Python's hash of a string, a name, a number, an int and a tuple, left abstract as in Objects.v *)
  Context {H : Type}.
  Variable h_str : string -> H.
  Variable h_name : name -> H.
  Variable h_num : T -> H.
  Variable h_pos : positive -> H.
  Variable h_nat : nat -> H.
  Variable h_tuple : list H -> H.
  Notation E := (expr T).
  Notation obj := (pyobj (T:=T)).
  Hypothesis Hequiv : num_equiv N.

  Definition run (f : qfun) (self : obj) (args : list (qval (T:=T) (H:=H))) : option qval :=
    qcall N h_str h_name h_num h_pos h_nat h_tuple f self args.

  Definition phash := py_hash h_str h_name h_num h_pos h_nat h_tuple.

  Lemma neqb_sym : forall x y, neqb N x y = neqb N y x.
  Proof. destruct Hequiv as (_ & Hs & _). exact Hs. Qed.

  Lemma eq_Constant_tied : forall c (o : obj),
    run gen_obj_Constant_eq (OExpr (Const c)) [QVObj o] = Some (QVB (py_eq N (OExpr (Const c)) o)).
  Proof. intros c o. destruct o as [[]| | | | | |]; reflexivity. Qed.

  Lemma eq_Variable_tied : forall x (o : obj),
    run gen_obj_Variable_eq (OExpr (Var x)) [QVObj o] = Some (QVB (py_eq N (OExpr (Var x)) o)).
  Proof. intros x o. destruct o as [[]| | | | | |]; reflexivity. Qed.

  Lemma eq_Unary_tied : forall (e : E) (o : obj),
    match e with
    | Neg _ | Recip _ | Sin _ | Cos _ =>
        run gen_obj_UnaryExpression_eq (OExpr e) [QVObj o] = Some (QVB (py_eq N (OExpr e) o))
    | _ => True
    end.
  Proof.
    intros e o. destruct e as [| | | | | | |a|a|a|a| | | |]; try exact I;
      (destruct o as [[]| | | | | |]; try reflexivity);
      ev; rewrite (eqb_sym N Hequiv _ a); reflexivity.
  Qed.

  Lemma eq_Param_tied : forall (e : E) (o : obj),
    match e with
    | NthPow _ _ | NthRoot _ _ | Exp _ _ | Log _ _ =>
        run gen_obj_ParameterizedUnaryExpression_eq (OExpr e) [QVObj o] = Some (QVB (py_eq N (OExpr e) o))
    | _ => True
    end.
  Proof.
    intros e o. destruct e as [| | | | | | | | | | |a ?|a ?|a ?|a ?]; try exact I;
      (destruct o as [[| | | | | | | | | | |b ?|b ?|b ?|b ?]| | | | | |]; try reflexivity);
      ev; cbn [eqb]; rewrite (eqb_sym N Hequiv b a); destruct (eqb N a b); reflexivity.
  Qed.

  Lemma eq_Binary_tied : forall (e : E) (o : obj),
    match e with
    | Minus _ _ | Divide _ _ | Power _ _ =>
        run gen_obj_BinaryExpression_eq (OExpr e) [QVObj o] = Some (QVB (py_eq N (OExpr e) o))
    | _ => True
    end.
  Proof.
    intros e o. destruct e as [| | | |a1 a2|a1 a2|a1 a2| | | | | | | |]; try exact I;
      (destruct o as [[| | | |b1 b2|b1 b2|b1 b2| | | | | | | |]| | | | | |]; try reflexivity);
      ev; cbn [eqb]; rewrite (eqb_sym N Hequiv b1 a1), (eqb_sym N Hequiv b2 a2);
      destruct (eqb N a1 b1); reflexivity.
  Qed.

  Notation OE := (fun x : E => @QVObj T H (OExpr x)).

  (* the length test and the loop over zip(other._inners, self._inners), together *)
  Lemma zip_any_ne_tied : forall l l' : list E, exists c,
    qzip_any_ne N (map OE l') (map OE l) = Some c /\
    eqb_list N l l' = Nat.eqb (List.length l') (List.length l) && negb c.
  Proof.
    induction l as [|a l IH]; intros [|b l']; try (eexists; split; reflexivity).
    destruct (IH l') as (c & Hz & He).
    cbn [map qzip_any_ne qeq py_eq List.length Nat.eqb]. rewrite eqb_list_cons, He, Hz, (eqb_sym N Hequiv b a).
    destruct (eqb N a b).
    - exists c. split; reflexivity.
    - exists true. split; [reflexivity | symmetry; apply andb_false_r].
  Qed.

  Lemma eq_NAry_tied : forall (e : E) (o : obj),
    match e with
    | Add _ | Mul _ =>
        run gen_obj_NAryExpression_eq (OExpr e) [QVObj o] = Some (QVB (py_eq N (OExpr e) o))
    | _ => True
    end.
  Proof.
    intros e o. destruct e as [| |l|l| | | | | | | | | | |]; try exact I;
      (destruct o as [[| |l'|l'| | | | | | | | | | |]| | | | | |]; try reflexivity);
      unfold run, qcall; cbn -[eqb]; rewrite !map_length;
      destruct (zip_any_ne_tied l l') as (c & Hz & He);
      first [rewrite eqb_Add | rewrite eqb_Mul]; rewrite He;
      (destruct (Nat.eqb (List.length l') (List.length l)); [|reflexivity]);
      cbn; rewrite Hz; destruct c; reflexivity.
  Qed.

  Lemma eq_Point_tied : forall p (o : obj),
    run gen_obj_Point_eq (OPoint p) [QVObj o] = Some (QVB (py_eq N (OPoint p) o)).
  Proof. intros p o. destruct o as [[]| | | | | |]; reflexivity. Qed.

  Lemma eq_Partial_tied : forall e v (o : obj),
    run gen_obj_Partial_eq (OPartial e v) [QVObj o] = Some (QVB (py_eq N (OPartial e v) o)).
  Proof.
    intros e v o. destruct o as [[]| |e' ?| | | |]; try reflexivity.
    ev. destruct (eqb N e e'); reflexivity.
  Qed.

  Lemma eq_Derivative_tied : forall e (o : obj),
    run gen_obj_Derivative_eq (ODerivative e) [QVObj o] = Some (QVB (py_eq N (ODerivative e) o)).
  Proof. intros e o. destruct o as [[]| | | | | |]; reflexivity. Qed.

  Lemma eq_Differential_tied : forall e (o : obj),
    run gen_obj_Differential_eq (ODifferential e) [QVObj o] = Some (QVB (py_eq N (ODifferential e) o)).
  Proof. intros e o. destruct o as [[]| | | | | |]; reflexivity. Qed.

  (* the coordinate names of a Point are distinct (they are the keys of a dict) *)
  Definition wf_obj (o : obj) : Prop :=
    match o with
    | OPoint p | OLocated _ p => NoDup (map fst p)
    | _ => True
    end.

  Lemma eq_Located_tied : forall e p (o : obj), NoDup (map fst p) -> wf_obj o ->
    run gen_obj_LocatedDifferential_eq (OLocated e p) [QVObj o] = Some (QVB (py_eq N (OLocated e p) o)).
  Proof.
    intros e p o Hp Ho. destruct o as [[]| | | | |e' q|]; try reflexivity.
    ev. rewrite (point_eqb_sym N Hequiv q p Ho Hp). destruct (eqb N e e'); reflexivity.
  Qed.

  Definition hv (o : obj) : option (qval (T:=T) (H:=H)) :=
    match phash o with Some h => Some (QVHash h) | None => None end.

  Lemma hash_Constant_tied : forall c, run gen_obj_Constant_hash (OExpr (Const c)) [] = hv (OExpr (Const c)).
  Proof. reflexivity. Qed.
  Lemma hash_Variable_tied : forall x, run gen_obj_Variable_hash (OExpr (Var x)) [] = hv (OExpr (Var x)).
  Proof. reflexivity. Qed.

  Lemma hash_Unary_tied : forall e : E,
    match e with
    | Neg _ | Recip _ | Sin _ | Cos _ => run gen_obj_UnaryExpression_hash (OExpr e) [] = hv (OExpr e)
    | _ => True
    end.
  Proof. intros e. destruct e; try exact I; reflexivity. Qed.

  Lemma hash_Param_tied : forall e : E,
    match e with
    | NthPow _ _ | NthRoot _ _ | Exp _ _ | Log _ _ =>
        run gen_obj_ParameterizedUnaryExpression_hash (OExpr e) [] = hv (OExpr e)
    | _ => True
    end.
  Proof. intros e. destruct e; try exact I; reflexivity. Qed.

  Lemma hash_Binary_tied : forall e : E,
    match e with
    | Minus _ _ | Divide _ _ | Power _ _ => run gen_obj_BinaryExpression_hash (OExpr e) [] = hv (OExpr e)
    | _ => True
    end.
  Proof. intros e. destruct e; try exact I; reflexivity. Qed.

  (* The anonymous [fix go] inside ObjAst.qhash on a tuple ([f] is [qhash]) and inside ObjAst.qev at
     [QJoinStr] ([f] is [qstr]), written out here for want of a name. *)
  Lemma loop_map {A B C} (f : B -> option C) (g : A -> B) (h : A -> C) :
    (forall x, f (g x) = Some (h x)) -> forall l : list A,
    (fix go (l0 : list B) : option (list C) :=
       match l0 with
       | [] => Some []
       | x :: r => match f x, go r with Some a, Some b => Some (a :: b) | _, _ => None end
       end) (map g l) = Some (map h l).
  Proof.
    intros Hf. induction l as [|a l IH]; [reflexivity|]. cbn [map]. rewrite Hf, IH. reflexivity.
  Qed.

  Notation qh := (qhash h_str h_name h_num h_pos h_nat h_tuple).

  Lemma hash_NAry_tied : forall e : E,
    match e with
    | Add _ | Mul _ => run gen_obj_NAryExpression_hash (OExpr e) [] = hv (OExpr e)
    | _ => True
    end.
  Proof.
    intros e. destruct e; try exact I; unfold run, qcall; cbn -[hash_expr];
      rewrite (loop_map qh OE (hash_expr h_str h_name h_num h_pos h_nat h_tuple) (fun _ => eq_refl)), map_length;
      reflexivity.
  Qed.

  Lemma hash_Point_tied : forall p, run gen_obj_Point_hash (OPoint p) [] = hv (OPoint p).
  Proof.
    intros p. unfold run, qcall. cbn -[sort_coords].
    rewrite (loop_map qh (fun kv => QVTup [QVName (fst kv); QVNum (snd kv)])
               (fun kv => h_tuple [h_name (fst kv); h_num (snd kv)]) (fun _ => eq_refl)).
    reflexivity.
  Qed.

  Lemma hash_Partial_tied : forall e v, run gen_obj_Partial_hash (OPartial e v) [] = hv (OPartial e v).
  Proof. reflexivity. Qed.
  Lemma hash_Derivative_tied : forall e, run gen_obj_Derivative_hash (ODerivative e) [] = hv (ODerivative e).
  Proof. reflexivity. Qed.
  Lemma hash_Differential_tied : forall e, run gen_obj_Differential_hash (ODifferential e) [] = hv (ODifferential e).
  Proof. reflexivity. Qed.
  Lemma hash_Located_tied : forall e p, run gen_obj_LocatedDifferential_hash (OLocated e p) [] = hv (OLocated e p).
  Proof. reflexivity. Qed.

  Definition sv (o : obj) : option (qval (T:=T) (H:=H)) :=
    match qto_string o with Some ts => Some (QVToks ts) | None => None end.

  Lemma str_Constant_tied : forall c,
    run gen_obj_Constant_str (OExpr (Const c)) [] = sv (OExpr (Const c)) /\
    run gen_obj_Constant_repr (OExpr (Const c)) [] = sv (OExpr (Const c)).
  Proof. split; reflexivity. Qed.

  Lemma str_Variable_tied : forall x,
    run gen_obj_Variable_str (OExpr (Var x)) [] = sv (OExpr (Var x)) /\
    run gen_obj_Variable_repr (OExpr (Var x)) [] = sv (OExpr (Var x)).
  Proof. split; reflexivity. Qed.

  Lemma str_Unary_tied : forall e : E,
    match e with
    | Neg _ | Recip _ | Sin _ | Cos _ =>
        run gen_obj_UnaryExpression_str (OExpr e) [] = sv (OExpr e) /\
        run gen_obj_UnaryExpression_repr (OExpr e) [] = sv (OExpr e)
    | _ => True
    end.
  Proof. intros e. destruct e; try exact I; split; reflexivity. Qed.

  Lemma str_Binary_tied : forall e : E,
    match e with
    | Minus _ _ | Divide _ _ | Power _ _ =>
        run gen_obj_BinaryExpression_str (OExpr e) [] = sv (OExpr e) /\
        run gen_obj_BinaryExpression_repr (OExpr e) [] = sv (OExpr e)
    | _ => True
    end.
  Proof. intros e. destruct e; try exact I; split; reflexivity. Qed.

  Lemma str_Param_tied : forall e : E,
    match e with
    | NthPow _ _ | NthRoot _ _ | Exp _ _ | Log _ _ =>
        run gen_obj_ParameterizedUnaryExpression_str (OExpr e) [] = sv (OExpr e) /\
        run gen_obj_ParameterizedUnaryExpression_repr (OExpr e) [] = sv (OExpr e)
    | _ => True
    end.
  Proof. intros e. destruct e; try exact I; split; reflexivity. Qed.

  Lemma to_string_NthPower_tied : forall a n,
    run gen_obj_NthPower_to_string (OExpr (NthPow a n)) [] = sv (OExpr (NthPow a n)).
  Proof. reflexivity. Qed.
  Lemma to_string_NthRoot_tied : forall a n,
    run gen_obj_NthRoot_to_string (OExpr (NthRoot a n)) [] = sv (OExpr (NthRoot a n)).
  Proof. reflexivity. Qed.
  Lemma to_string_Exponential_tied : forall a b,
    run gen_obj_Exponential_to_string (OExpr (Exp a b)) [] = sv (OExpr (Exp a b)).
  Proof. reflexivity. Qed.
  Lemma to_string_Logarithm_tied : forall a b,
    run gen_obj_Logarithm_to_string (OExpr (Log a b)) [] = sv (OExpr (Log a b)).
  Proof. reflexivity. Qed.

  Lemma str_NAry_tied : forall e : E,
    match e with
    | Add _ | Mul _ =>
        run gen_obj_NAryExpression_str (OExpr e) [] = sv (OExpr e) /\
        run gen_obj_NAryExpression_repr (OExpr e) [] = sv (OExpr e)
    | _ => True
    end.
  Proof.
    intros e. destruct e; try exact I; split; unfold run, qcall; cbn -[show];
      rewrite (loop_map qstr OE show (fun _ => eq_refl)); reflexivity.
  Qed.

  Lemma str_Point_tied : forall p,
    run gen_obj_Point_str (OPoint p) [] = sv (OPoint p) /\
    run gen_obj_Point_repr (OPoint p) [] = sv (OPoint p) /\
    run gen_obj_Point_to_string (OPoint p) [] = sv (OPoint p).
  Proof. repeat split; reflexivity. Qed.

  Lemma str_Partial_tied : forall e v,
    run gen_obj_Partial_str (OPartial e v) [] = sv (OPartial e v) /\
    run gen_obj_Partial_repr (OPartial e v) [] = sv (OPartial e v) /\
    run gen_obj_Partial_to_string (OPartial e v) [] = sv (OPartial e v).
  Proof. repeat split; reflexivity. Qed.

  Lemma str_Derivative_tied : forall e,
    run gen_obj_Derivative_str (ODerivative e) [] = sv (ODerivative e) /\
    run gen_obj_Derivative_repr (ODerivative e) [] = sv (ODerivative e) /\
    run gen_obj_Derivative_to_string (ODerivative e) [] = sv (ODerivative e).
  Proof. repeat split; reflexivity. Qed.

  Lemma str_Differential_tied : forall e,
    run gen_obj_Differential_str (ODifferential e) [] = sv (ODifferential e) /\
    run gen_obj_Differential_repr (ODifferential e) [] = sv (ODifferential e) /\
    run gen_obj_Differential_to_string (ODifferential e) [] = sv (ODifferential e).
  Proof. repeat split; reflexivity. Qed.

  Lemma str_Located_tied : forall e p,
    run gen_obj_LocatedDifferential_str (OLocated e p) [] = sv (OLocated e p) /\
    run gen_obj_LocatedDifferential_repr (OLocated e p) [] = sv (OLocated e p) /\
    run gen_obj_LocatedDifferential_to_string (OLocated e p) [] = sv (OLocated e p).
  Proof. repeat split; reflexivity. Qed.

  Definition gen_eq (a o : obj) : option (qval (T:=T) (H:=H)) :=
    match a with
    | OExpr e =>
        match e with
        | Const _ => run gen_obj_Constant_eq a [QVObj o]
        | Var _ => run gen_obj_Variable_eq a [QVObj o]
        | Add _ | Mul _ => run gen_obj_NAryExpression_eq a [QVObj o]
        | Minus _ _ | Divide _ _ | Power _ _ => run gen_obj_BinaryExpression_eq a [QVObj o]
        | Neg _ | Recip _ | Sin _ | Cos _ => run gen_obj_UnaryExpression_eq a [QVObj o]
        | NthPow _ _ | NthRoot _ _ | Exp _ _ | Log _ _ => run gen_obj_ParameterizedUnaryExpression_eq a [QVObj o]
        end
    | OPoint _ => run gen_obj_Point_eq a [QVObj o]
    | OPartial _ _ => run gen_obj_Partial_eq a [QVObj o]
    | ODerivative _ => run gen_obj_Derivative_eq a [QVObj o]
    | ODifferential _ => run gen_obj_Differential_eq a [QVObj o]
    | OLocated _ _ => run gen_obj_LocatedDifferential_eq a [QVObj o]
    | OForeign _ => None
    end.

  Definition is_library (a : obj) : Prop := match a with OForeign _ => False | _ => True end.

  Theorem eq_tied : forall a o : obj, is_library a -> wf_obj a -> wf_obj o ->
    gen_eq a o = Some (QVB (py_eq N a o)).
  Proof.
    intros a o Ha Hwa Hwo. destruct a as [e|p|e v|e|e|e p|k]; unfold gen_eq.
    - pose proof (eq_NAry_tied e o). pose proof (eq_Binary_tied e o).
      pose proof (eq_Unary_tied e o). pose proof (eq_Param_tied e o).
      destruct e; try assumption; [apply eq_Constant_tied | apply eq_Variable_tied].
    - apply eq_Point_tied.
    - apply eq_Partial_tied.
    - apply eq_Derivative_tied.
    - apply eq_Differential_tied.
    - apply eq_Located_tied; assumption.
    - destruct Ha.
  Qed.

  Definition gen_hash (a : obj) : option (qval (T:=T) (H:=H)) :=
    match a with
    | OExpr e =>
        match e with
        | Const _ => run gen_obj_Constant_hash a []
        | Var _ => run gen_obj_Variable_hash a []
        | Add _ | Mul _ => run gen_obj_NAryExpression_hash a []
        | Minus _ _ | Divide _ _ | Power _ _ => run gen_obj_BinaryExpression_hash a []
        | Neg _ | Recip _ | Sin _ | Cos _ => run gen_obj_UnaryExpression_hash a []
        | NthPow _ _ | NthRoot _ _ | Exp _ _ | Log _ _ => run gen_obj_ParameterizedUnaryExpression_hash a []
        end
    | OPoint _ => run gen_obj_Point_hash a []
    | OPartial _ _ => run gen_obj_Partial_hash a []
    | ODerivative _ => run gen_obj_Derivative_hash a []
    | ODifferential _ => run gen_obj_Differential_hash a []
    | OLocated _ _ => run gen_obj_LocatedDifferential_hash a []
    | OForeign _ => None
    end.

  Theorem hash_tied : forall a : obj, gen_hash a = hv a.
  Proof.
    intros a. destruct a as [e|p|e v|e|e|e p|k]; unfold gen_hash.
    - pose proof (hash_NAry_tied e). pose proof (hash_Binary_tied e).
      pose proof (hash_Unary_tied e). pose proof (hash_Param_tied e).
      destruct e; try assumption; [apply hash_Constant_tied | apply hash_Variable_tied].
    - apply hash_Point_tied.
    - apply hash_Partial_tied.
    - apply hash_Derivative_tied.
    - apply hash_Differential_tied.
    - apply hash_Located_tied.
    - reflexivity.
  Qed.

  (* repr(a), and str(a), which the lemmas above show equal. For the parameterised classes __repr__
     returns self._to_string(): [gen_repr] names the class's own _to_string, where that call arrives. *)
  Definition gen_repr (a : obj) : option (qval (T:=T) (H:=H)) :=
    match a with
    | OExpr e =>
        match e with
        | Const _ => run gen_obj_Constant_repr a []
        | Var _ => run gen_obj_Variable_repr a []
        | Add _ | Mul _ => run gen_obj_NAryExpression_repr a []
        | Minus _ _ | Divide _ _ | Power _ _ => run gen_obj_BinaryExpression_repr a []
        | Neg _ | Recip _ | Sin _ | Cos _ => run gen_obj_UnaryExpression_repr a []
        | NthPow _ _ => run gen_obj_NthPower_to_string a []
        | NthRoot _ _ => run gen_obj_NthRoot_to_string a []
        | Exp _ _ => run gen_obj_Exponential_to_string a []
        | Log _ _ => run gen_obj_Logarithm_to_string a []
        end
    | OPoint _ => run gen_obj_Point_to_string a []
    | OPartial _ _ => run gen_obj_Partial_to_string a []
    | ODerivative _ => run gen_obj_Derivative_to_string a []
    | ODifferential _ => run gen_obj_Differential_to_string a []
    | OLocated _ _ => run gen_obj_LocatedDifferential_to_string a []
    | OForeign _ => None
    end.

  Theorem repr_tied : forall a : obj, gen_repr a = sv a.
  Proof.
    intros a. destruct a as [e|p|e v|e|e|e p|k]; unfold gen_repr.
    - pose proof (str_NAry_tied e) as HN. pose proof (str_Binary_tied e) as HB.
      pose proof (str_Unary_tied e) as HU.
      destruct e; try (apply HN || apply HB || apply HU).
      + apply str_Constant_tied. + apply str_Variable_tied.
      + apply to_string_NthPower_tied. + apply to_string_NthRoot_tied.
      + apply to_string_Exponential_tied. + apply to_string_Logarithm_tied.
    - apply str_Point_tied.
    - apply str_Partial_tied.
    - apply str_Derivative_tied.
    - apply str_Differential_tied.
    - apply str_Located_tied.
    - reflexivity.
  Qed.
End Tie.
