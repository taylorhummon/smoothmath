From Coq Require Import List String Bool.
From SM Require Import Generated.
Import ListNotations.
Open Scope string_scope.

(* REDUCTION_STEPS_BOUND, the budget of Stateful.fully_reduce_f and of the C11 budget clause *)
Definition model_steps_bound : nat := 1000.
Lemma steps_bound_tied : gen_steps_bound = model_steps_bound.
Proof. reflexivity. Qed.

