(** The [_rebuild] methods and the [n] / [base] properties (GeneratedRebuild.v) compute what the
    other embeddings assume: StepAst.trebuild (same class and parameter, new children) and the
    parameter read-out. *)
From Coq Require Import ZArith List Bool String Ascii.
From SM Require Import Num Syntax RebuildAst GeneratedRebuild StepAst TieTactics.
Import ListNotations.
Open Scope string_scope.
Open Scope list_scope.

Section Tie.
  Context {T : Type}.
  Notation E := (expr T).

  Definition gen_rebuild_of (self : E) : pfun :=
    match self with
    | Const _ => gen_rebuild_Constant
    | Var _ => gen_rebuild_Variable
    | Add _ | Mul _ => gen_rebuild_NAryExpression
    | Minus _ _ | Divide _ _ | Power _ _ => gen_rebuild_BinaryExpression
    | Neg _ | Recip _ | Sin _ | Cos _ => gen_rebuild_UnaryExpression
    | NthPow _ _ | NthRoot _ _ | Exp _ _ | Log _ _ => gen_rebuild_ParameterizedUnaryExpression
    end.

  (* No other class defines _rebuild, n or base, nor a __getattr__, __getattribute__ or
     __setattr__, which would bypass the bodies tied here. *)
  Lemma no_overrides : gen_rebuild_overrides = [].
  Proof. reflexivity. Qed.

  (* the folds of [pcall] and [pnew_same], on a list of expressions *)
  Lemma collect_map : forall l : list E,
    fold_right (fun a acc => match a with PVE e => e :: acc | _ => acc end) [] (map (@PVE T) l) = l.
  Proof. induction l as [|x l IH]; cbn; [reflexivity | rewrite IH; reflexivity]. Qed.

  Lemma splice_map : forall l : list E,
    fold_right (fun a acc => match a, acc with PVE e, Some es => Some (e :: es) | _, _ => None end)
               (Some []) (map (@PVE T) l ++ []) = Some l.
  Proof. induction l as [|x l IH]; cbn; [reflexivity | rewrite IH; reflexivity]. Qed.

  Theorem rebuild_tied : forall (self : E) (args : list E),
    match self with Const _ | Var _ => False | _ => True end ->
    pcall (gen_rebuild_of self) self (map (@PVE T) args) = option_map (@PVE T) (trebuild self args).
  Proof.
    intros self args Hc.
    destruct self; try destruct Hc.
    1-2: with_strategy opaque [fold_right map app] ev; rewrite collect_map;
         with_strategy opaque [fold_right map app] ev; rewrite splice_map; reflexivity.
    all: destruct args as [|a [|b [|c rest]]]; reflexivity.
  Qed.

  Lemma rebuild_Constant_tied : forall c : T, pcall gen_rebuild_Constant (Const c) [] = Some (PVE (Const c)).
  Proof. reflexivity. Qed.
  Lemma rebuild_Variable_tied : forall x : name, pcall gen_rebuild_Variable (@Var T x) [] = Some (PVE (Var x)).
  Proof. reflexivity. Qed.

  Lemma property_NthPower_n_tied : forall (a : E) n, pcall gen_property_NthPower_n (NthPow a n) [] = pproperty (NthPow a n) "n".
  Proof. reflexivity. Qed.
  Lemma property_NthRoot_n_tied : forall (a : E) n, pcall gen_property_NthRoot_n (NthRoot a n) [] = pproperty (NthRoot a n) "n".
  Proof. reflexivity. Qed.
  Lemma property_Exponential_base_tied : forall (a : E) b, pcall gen_property_Exponential_base (Exp a b) [] = pproperty (Exp a b) "base".
  Proof. reflexivity. Qed.
  Lemma property_Logarithm_base_tied : forall (a : E) b, pcall gen_property_Logarithm_base (Log a b) [] = pproperty (Log a b) "base".
  Proof. reflexivity. Qed.
End Tie.
