(** [_take_reduction_step] of the three base classes and the two leaves,
    [_consolidate_expression_lacking_variables] and [_fully_reduce] (GeneratedStep.v, run by
    StepAst) compute [take_step_f], [consolidate_f] and, up to the flag forced when the budget runs
    out, [fully_reduce_f] of Stateful.v, for every number interface. *)
From Coq Require Import ZArith List Bool String.
From SM Require Import Num Syntax Outcome MathFun Eval Rules Driver Stateful StatefulFacts StepAst GeneratedStep.
From SM.proofs Require Import SyntaxFacts.
Import ListNotations.
Open Scope string_scope.
Open Scope list_scope.

Section Tie.
  Context {T : Type} (N : NumOps T).
  Notation E := (expr T).
  Variable E_eqb : E -> E -> bool.
  Variable budget : nat.
  Notation flags := (flags (T:=T)).

  Definition call (fn : tfun) (f : flags) (e : E) := tcall N E_eqb budget fn f e.

  (* [cbn] and not [TieTactics.ev]: it leaves the loops of the interpreter folded on a list that is a
     variable. *)
  Ltac trun := cbn -[eval take_step_f consolidate_f apply_reducers mark_reduced mark_failed var_free
                    tattr trebuild erebuild is_Const].

  (* The body catches DomainError only: where the evaluation is reached, any other exception escapes
     the method (the first two branches). *)
  Lemma consolidate_tied : forall f e,
    call gen_step_Expression_consolidate f e =
    match (if var_free e then match e with Const _ => false | _ => negb (failed f e) end else false),
          eval N [] e with
    | true, PyErr k => PyErr k
    | true, CoordMissing => CoordMissing
    | _, _ => let (f1, c) := consolidate_f N E_eqb f e in
              Val (f1, match c with Some c' => TVE c' | None => TVNone end)
    end.
  Proof.
    intros f e. unfold call, tcall, consolidate_f. rewrite !match_Const. trun.
    case (var_free e); [trun | reflexivity].
    change (match e with Const _ => true | _ => false end) with (is_Const e).
    case (is_Const e); [reflexivity | trun].
    case (failed f e); [reflexivity | trun].
    case (eval N [] e); reflexivity.
  Qed.

  Lemma step_Constant_tied : forall f c,
    call gen_step_Constant_step f (Const c) = Val (mark_reduced E_eqb f (Const c), TVE (Const c)).
  Proof. reflexivity. Qed.

  Lemma step_Variable_tied : forall f x,
    call gen_step_Variable_step f (Var x) = Val (mark_reduced E_eqb f (Var x), TVE (Var x)).
  Proof. reflexivity. Qed.

  Definition ret (r : flags * E) : tres (tval (T:=T)) := Val (fst r, TVE (snd r)).

  (* The hypotheses of a per-kind lemma are what a subclass adds to its base class: the attribute
     that holds the children ([tattr]) and a [_rebuild] ([trebuild]) that is [erebuild]. *)
  Lemma step_Unary_tied : forall e a,
    tattr (TVE e) "_inner" = Some (TVE a) ->
    (forall a', trebuild e [a'] = Some (erebuild e [a'])) ->
    echildren e = [a] ->
    forall f, call gen_step_UnaryExpression_step f e = ret (take_step_f N E_eqb f e).
  Proof.
    intros e a Ha Hrb Hc f. rewrite take_step_f_unfold, Hc. unfold call, tcall, ret. trun.
    case (reduced f e); [reflexivity | trun].
    case (consolidate_f N E_eqb f e); intros f1 [c|]; [reflexivity | trun].
    rewrite Ha. trun. case (reduced f1 a); trun.
    - case (apply_reducers N e); [intros [nm e']|]; reflexivity.
    - case (take_step_f N E_eqb f1 a); intros f2 a'. trun. rewrite Hrb. reflexivity.
  Qed.

  Lemma step_Binary_tied : forall e a b,
    tattr (TVE e) "_left" = Some (TVE a) -> tattr (TVE e) "_right" = Some (TVE b) ->
    (forall a' b', trebuild e [a'; b'] = Some (erebuild e [a'; b'])) ->
    echildren e = [a; b] ->
    forall f, call gen_step_BinaryExpression_step f e = ret (take_step_f N E_eqb f e).
  Proof.
    intros e a b Ha Hb Hrb Hc f. rewrite take_step_f_unfold, Hc. unfold call, tcall, ret. trun.
    case (reduced f e); [reflexivity | trun].
    case (consolidate_f N E_eqb f e); intros f1 [c|]; [reflexivity | trun].
    rewrite Ha. trun. case (reduced f1 a); trun.
    - rewrite Hb. trun. case (reduced f1 b); trun.
      + case (apply_reducers N e); [intros [nm e']|]; reflexivity.
      + case (take_step_f N E_eqb f1 b); intros f2 b'. trun. rewrite Ha. trun. rewrite Hrb. reflexivity.
    - case (take_step_f N E_eqb f1 a); intros f2 a'. trun. rewrite Hb. trun. rewrite Hrb. reflexivity.
  Qed.

  Lemma updated_at_app : forall {X} (pre : list X) x rest x',
    updated_at (pre ++ x :: rest) (List.length pre) x' = pre ++ x' :: rest.
  Proof. induction pre as [|a pre IH]; intros; cbn [app List.length updated_at]; [reflexivity|]. rewrite IH. reflexivity. Qed.

  (* the loop over [enumerate(self._inners)] from one iteration; [Inv]: what the body keeps of the
     environment *)
  Lemma enum_spec : forall (C : list E -> E) (Inv : tenv (T:=T) -> Prop) (l : list E)
                           (body : tenv (T:=T) -> flags -> nat -> E -> tres tflow) (f1 : flags),
    (forall r n it, Inv r ->
       exists r', Inv r' /\
         body r f1 n it =
           if reduced f1 it then Val (f1, inl r')
           else let (f2, it') := take_step_f N E_eqb f1 it in Val (f2, inr (TVE (C (updated_at l n it'))))) ->
    forall suf pre r, l = pre ++ suf -> Inv r ->
      match step_list_f N E_eqb f1 suf with
      | Some (f2, suf') => tenum_loop body (List.length pre) r f1 suf = Val (f2, inr (TVE (C (pre ++ suf'))))
      | None => exists r', Inv r' /\ tenum_loop body (List.length pre) r f1 suf = Val (f1, inl r')
      end.
  Proof.
    intros C Inv l body f1 Hb suf. induction suf as [|x suf IH]; intros pre r Hl Hr.
    - cbn [step_list_f tenum_loop]. exists r. split; [exact Hr | reflexivity].
    - cbn [step_list_f tenum_loop].
      destruct (Hb r (List.length pre) x Hr) as (r1 & Hr1 & Hbody). rewrite Hbody.
      destruct (reduced f1 x); cbn [bind].
      + assert (Hl' : l = (pre ++ [x]) ++ suf) by (rewrite <- app_assoc; exact Hl).
        specialize (IH (pre ++ [x]) r1 Hl' Hr1). rewrite last_length in IH.
        destruct (step_list_f N E_eqb f1 suf) as [[f2 suf']|].
        * rewrite IH. rewrite <- app_assoc. reflexivity.
        * exact IH.
      + destruct (take_step_f N E_eqb f1 x) as [f2 x']. cbn [bind].
        rewrite Hl, updated_at_app. reflexivity.
  Qed.

  Lemma step_NAry_tied : forall e l,
    tattr (TVE e) "_inners" = Some (TVL l) ->
    (forall l', trebuild e l' = Some (erebuild e l')) ->
    echildren e = l ->
    forall f, call gen_step_NAryExpression_step f e = ret (take_step_f N E_eqb f e).
  Proof.
    intros e l Hl HC Hc f. rewrite take_step_f_unfold, Hc. unfold call, tcall, ret. trun.
    case (reduced f e); [reflexivity | trun].
    case (consolidate_f N E_eqb f e); intros f1 [c|]; [reflexivity | trun].
    rewrite Hl. trun.
    match goal with |- context [tenum_loop ?body 0 ?r0 f1 l] =>
      set (bd := body);
      pose proof (fun Hb => enum_spec (erebuild e) (fun r => tlook "self" r = Some (TVE e)) l bd f1 Hb l [] r0 eq_refl eq_refl)
        as Hloop
    end.
    lapply Hloop; clear Hloop.
    - cbn [List.length app]. intros Hloop.
      destruct (step_list_f N E_eqb f1 l) as [[f2 l']|].
      + rewrite Hloop. reflexivity.
      + destruct Hloop as (r' & Hself & ->). trun. rewrite Hself. trun.
        case (apply_reducers N e); [intros [nm e']; reflexivity | trun]. rewrite Hself. trun. rewrite Hself. reflexivity.
    - intros r n it Hself. exists (("inner", TVE it) :: ("i", TVNat n) :: r). split; [exact Hself|].
      subst bd. trun. case (reduced f1 it); trun; [reflexivity|].
      case (take_step_f N E_eqb f1 it); intros f2 it'. trun. rewrite Hself. trun.
      rewrite Hl. trun. rewrite Hself, app_nil_r, HC. reflexivity.
  Qed.

  (* what the source's _fully_reduce computes: [fully_reduce_f], but with the flag forced when the
     budget runs out *)
  Fixpoint fully_reduce_marking (b : nat) (f : flags) (e : E) : flags * E :=
    match b with
    | O => (mark_reduced E_eqb f e, e)
    | S b' =>
        if reduced f e then (f, e)
        else let (f1, e1) := take_step_f N E_eqb f e in fully_reduce_marking b' f1 e1
    end.

  Lemma fully_reduce_marking_form : forall b f e,
    snd (fully_reduce_marking b f e) = snd (fully_reduce_f N E_eqb b f e).
  Proof.
    induction b as [|b IH]; intros f e; cbn [fully_reduce_marking fully_reduce_f]; [reflexivity|].
    destruct (reduced f e); [reflexivity|]. destruct (take_step_f N E_eqb f e) as [f1 e1]. apply IH.
  Qed.

  Lemma fully_reduce_marking_flags : forall b f e,
    fst (fully_reduce_marking b f e) = fst (fully_reduce_f N E_eqb b f e) \/
    fst (fully_reduce_marking b f e)
    = mark_reduced E_eqb (fst (fully_reduce_f N E_eqb b f e)) (snd (fully_reduce_f N E_eqb b f e)).
  Proof.
    induction b as [|b IH]; intros f e; cbn [fully_reduce_marking fully_reduce_f]; [right; reflexivity|].
    destruct (reduced f e); [left; reflexivity|]. destruct (take_step_f N E_eqb f e) as [f1 e1]. apply IH.
  Qed.

  (* the budget loop from one iteration; [I r e]: the environment [r] holds [e] as the current form *)
  Lemma budget_loop_spec : forall (body : tenv (T:=T) -> flags -> tres tflow) (I : tenv (T:=T) -> E -> Prop),
    (forall r f e, I r e ->
       if reduced f e then body r f = Val (f, inr (TVE e))
       else exists r1, I r1 (snd (take_step_f N E_eqb f e)) /\
                       body r f = Val (fst (take_step_f N E_eqb f e), inl r1)) ->
    forall b r f e, I r e ->
      match tbudget_loop body b r f with
      | Val (f', inr w) => (f', w) = (fst (fully_reduce_marking b f e), TVE (snd (fully_reduce_marking b f e)))
      | Val (f', inl r') => exists e', I r' e' /\ (mark_reduced E_eqb f' e', e') = fully_reduce_marking b f e
      | _ => False
      end.
  Proof.
    intros body I Hb b. induction b as [|b IH]; intros r f e Hr; cbn [tbudget_loop fully_reduce_marking].
    - exists e. split; [exact Hr | reflexivity].
    - specialize (Hb r f e Hr). destruct (reduced f e).
      + rewrite Hb. reflexivity.
      + destruct Hb as (r1 & Hr1 & ->). destruct (take_step_f N E_eqb f e) as [f1 e1]. cbn [bind fst snd] in *.
        specialize (IH r1 f1 e1 Hr1).
        destruct (tbudget_loop body b r1 f1) as [[f' [r'|w]]| | |k]; exact IH.
  Qed.

  Theorem fully_reduce_tied : forall f e,
    call gen_step_Expression_fully_reduce f e = ret (fully_reduce_marking budget f e).
  Proof.
    intros f e. unfold call, tcall, ret. trun.
    match goal with |- context [tbudget_loop ?body budget ?r0 f] =>
      pose proof (fun Hb => budget_loop_spec body (fun r x => tlook "expression" r = Some (TVE x)) Hb
                              budget r0 f e eq_refl) as Hloop
    end.
    lapply Hloop; clear Hloop.
    - intros Hloop.
      destruct (tbudget_loop _ budget _ f) as [[f' [r'|w]]| | |k]; try contradiction.
      + destruct Hloop as (e' & Hr' & Heq). trun. rewrite Hr'. trun. rewrite Hr'. trun. rewrite <- Heq. reflexivity.
      + injection Hloop as -> ->. reflexivity.
    - intros r f0 e0 Hr. trun. rewrite Hr. trun. destruct (reduced f0 e0); trun; [reflexivity|].
      rewrite Hr. trun. destruct (take_step_f N E_eqb f0 e0) as [f1 e1].
      exists (("expression", TVE e1) :: r). split; reflexivity.
  Qed.

  Definition gen_step (f : flags) (e : E) : tres (tval (T:=T)) :=
    match e with
    | Const _ => call gen_step_Constant_step f e
    | Var _ => call gen_step_Variable_step f e
    | Add _ | Mul _ => call gen_step_NAryExpression_step f e
    | Minus _ _ | Divide _ _ | Power _ _ => call gen_step_BinaryExpression_step f e
    | _ => call gen_step_UnaryExpression_step f e
    end.

  (* The two leaf classes set the flag and return [self] without testing the flag first, where
     [take_step_f] returns a flagged node with the table as it is: hence the three parts for a leaf. *)
  Theorem take_step_tied : forall f e,
    match e with
    | Const _ | Var _ =>
        gen_step f e = Val (mark_reduced E_eqb f e, TVE e) /\
        (reduced f e = false -> take_step_f N E_eqb f e = (mark_reduced E_eqb f e, e)) /\
        snd (take_step_f N E_eqb f e) = e
    | _ => gen_step f e = ret (take_step_f N E_eqb f e)
    end.
  Proof.
    intros f e. destruct e; unfold gen_step.
    1-2: split; [reflexivity | cbn [take_step_f]; split; [intros -> | case (reduced f _)]; reflexivity].
    1-2: eapply step_NAry_tied; [reflexivity | intros; reflexivity | reflexivity].
    1-3: eapply step_Binary_tied; [reflexivity | reflexivity | intros; reflexivity | reflexivity].
    all: eapply step_Unary_tied; [reflexivity | intros; reflexivity | reflexivity].
  Qed.
End Tie.
