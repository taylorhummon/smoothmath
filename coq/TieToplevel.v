(** Everything in the library's modules and class bodies that is not an import, a class, a function
    or a docstring (the name pattern of Variable, the step bound, __all__, the type variables, the
    `if TYPE_CHECKING:` import blocks) is, verbatim, what it was when the model was written: code that
    runs at import time (a patched method, a changed constant, a class attribute shadowing a method)
    cannot slip past the body-by-body ties. *)
From Coq Require Import List String.
From SM Require Import Generated.
Import ListNotations.
Open Scope string_scope.

Definition model_toplevel : list (string * string) := [("__init__.py", "__all__ = ['DomainError', 'CoordinateMissing', 'Point', 'Expression', 'Derivative', 'Differential', 'Partial', 'LocatedDifferential']"); ("_private/accumulators.py", "if TYPE_CHECKING:
    from smoothmath import Expression
    from smoothmath.expression import Variable"); ("_private/base_expression/__init__.py", "__all__ = ['Expression', 'UnaryExpression', 'ParameterizedUnaryExpression', 'BinaryExpression', 'NAryExpression']"); ("_private/base_expression/binary_expression.py", "if TYPE_CHECKING:
    from smoothmath import Point, Expression"); ("_private/base_expression/expression.py", "REDUCTION_STEPS_BOUND = 1000"); ("_private/base_expression/expression.py", "if TYPE_CHECKING:
    from smoothmath import Point
    from smoothmath.expression import Add, Minus, Negation, Multiply, Divide, Power, NthPower
    from smoothmath._private.accumulators import NumericPartialsAccumulator, SyntheticPartialsAccumulator"); ("_private/base_expression/n_ary_expression.py", "if TYPE_CHECKING:
    from smoothmath import Point, Expression"); ("_private/base_expression/parameterized_unary_expression.py", "if TYPE_CHECKING:
    from smoothmath import Expression"); ("_private/base_expression/unary_expression.py", "if TYPE_CHECKING:
    from smoothmath import Point, Expression
    from smoothmath._private.accumulators import NumericPartialsAccumulator, SyntheticPartialsAccumulator"); ("_private/derivative.py", "if TYPE_CHECKING:
    from smoothmath import Point, Expression, Partial"); ("_private/differential.py", "if TYPE_CHECKING:
    from smoothmath import Point, Expression, Partial, LocatedDifferential
    from smoothmath.expression import Variable"); ("_private/expression/__init__.py", "__all__ = ['Variable', 'Constant', 'Add', 'Minus', 'Negation', 'Multiply', 'Divide', 'Reciprocal', 'Power', 'NthPower', 'NthRoot', 'Exponential', 'Logarithm', 'Cosine', 'Sine']"); ("_private/expression/add.py", "if TYPE_CHECKING:
    from smoothmath import Point, Expression
    from smoothmath.expression import Constant, Negation, Logarithm
    from smoothmath._private.accumulators import NumericPartialsAccumulator, SyntheticPartialsAccumulator"); ("_private/expression/constant.py", "if TYPE_CHECKING:
    from smoothmath import Point, Expression
    from smoothmath._private.accumulators import NumericPartialsAccumulator, SyntheticPartialsAccumulator"); ("_private/expression/cosine.py", "if TYPE_CHECKING:
    from smoothmath import Point, Expression"); ("_private/expression/divide.py", "if TYPE_CHECKING:
    from smoothmath import Point, Expression
    from smoothmath._private.accumulators import NumericPartialsAccumulator, SyntheticPartialsAccumulator"); ("_private/expression/exponential.py", "if TYPE_CHECKING:
    from smoothmath import Point, Expression"); ("_private/expression/logarithm.py", "if TYPE_CHECKING:
    from smoothmath import Point, Expression"); ("_private/expression/minus.py", "if TYPE_CHECKING:
    from smoothmath import Point, Expression
    from smoothmath._private.accumulators import NumericPartialsAccumulator, SyntheticPartialsAccumulator"); ("_private/expression/multiply.py", "if TYPE_CHECKING:
    from smoothmath import Point, Expression
    from smoothmath.expression import Constant, Negation, Reciprocal, NthPower, NthRoot, Exponential
    from smoothmath._private.accumulators import NumericPartialsAccumulator, SyntheticPartialsAccumulator"); ("_private/expression/negation.py", "if TYPE_CHECKING:
    from smoothmath import Point, Expression"); ("_private/expression/nth_power.py", "if TYPE_CHECKING:
    from smoothmath import Point, Expression"); ("_private/expression/nth_root.py", "if TYPE_CHECKING:
    from smoothmath import Point, Expression"); ("_private/expression/power.py", "if TYPE_CHECKING:
    from smoothmath import Point, Expression
    from smoothmath._private.accumulators import NumericPartialsAccumulator, SyntheticPartialsAccumulator"); ("_private/expression/reciprocal.py", "if TYPE_CHECKING:
    from smoothmath import Point, Expression"); ("_private/expression/sine.py", "if TYPE_CHECKING:
    from smoothmath import Point, Expression"); ("_private/expression/variable.py", "ALPHANUMERIC_PATTERN = re.compile('\\A\\w*\\Z')"); ("_private/expression/variable.py", "if TYPE_CHECKING:
    from smoothmath import Point, Expression
    from smoothmath._private.accumulators import NumericPartialsAccumulator, SyntheticPartialsAccumulator"); ("_private/located_differential.py", "if TYPE_CHECKING:
    from smoothmath import Point, Expression
    from smoothmath.expression import Variable"); ("_private/partial.py", "if TYPE_CHECKING:
    from smoothmath import Point, Expression
    from smoothmath.expression import Variable"); ("_private/point.py", "if TYPE_CHECKING:
    from smoothmath.expression import Variable"); ("_private/utilities.py", "U = TypeVar('U')"); ("_private/utilities.py", "V = TypeVar('V')"); ("_private/utilities.py", "W = TypeVar('W')"); ("expression/__init__.py", "__all__ = ['Variable', 'Constant', 'Add', 'Minus', 'Negation', 'Multiply', 'Divide', 'Reciprocal', 'Power', 'NthPower', 'NthRoot', 'Exponential', 'Logarithm', 'Cosine', 'Sine']")].

Lemma toplevel_tied : gen_toplevel = model_toplevel.
Proof. reflexivity. Qed.

(** The model depends on two constants among them: this one, and the step bound
    (TieBound.steps_bound_tied). *)
Lemma name_pattern_tied :
  In ("_private/expression/variable.py", "ALPHANUMERIC_PATTERN = re.compile('\\A\\w*\\Z')") gen_toplevel.
Proof.
  (* 26: its position in the table, counting from 0 *)
  apply nth_error_In with (n := 26). reflexivity.
Qed.

(** Every [raise] of the library, verbatim: exception class and message template, with its position in
    its function. The embeddings model which exception a body raises and when; the text it carries
    (which must not, for instance, enumerate a set: C18) is fixed here. *)
Definition model_raises : list (string * string) := [("_private/base_expression/binary_expression.py", "__init__ @6: raise Exception(f'Expressions must be composed of Expressions, found: {left}')"); ("_private/base_expression/binary_expression.py", "__init__ @8: raise Exception(f'Expressions must be composed of Expressions, found: {right}')"); ("_private/base_expression/binary_expression.py", "_verify_domain_constraints @5: raise Exception('Concrete classes derived from BinaryExpression must implement _verify_domain_constraints()')"); ("_private/base_expression/binary_expression.py", "_value_formula @5: raise Exception('Concrete classes derived from BinaryExpression must implement _value_formula()')"); ("_private/base_expression/binary_expression.py", "_reducers @3: raise Exception('Concrete classes derived from BinaryExpression must implement _reducers()')"); ("_private/base_expression/expression.py", "get_the_single_variable_name @12: raise Exception(exception_message)"); ("_private/base_expression/expression.py", "_rebuild @3: raise Exception('Concrete classes derived from Expression must implement _rebuild()')"); ("_private/base_expression/expression.py", "_reset_evaluation_cache @3: raise Exception('Concrete classes derived from Expression must implement _reset_evaluation_cache()')"); ("_private/base_expression/expression.py", "_evaluate @4: raise Exception('Concrete classes derived from Expression must implement _evaluate()')"); ("_private/base_expression/expression.py", "_numeric_partial @5: raise Exception('Concrete classes derived from Expression must implement _numeric_partial()')"); ("_private/base_expression/expression.py", "_synthetic_partial @4: raise Exception('Concrete classes derived from Expression must implement _synthetic_partial()')"); ("_private/base_expression/expression.py", "_compute_numeric_partials @6: raise Exception('Concrete classes derived from Expression must implement _compute_numeric_partials()')"); ("_private/base_expression/expression.py", "_compute_synthetic_partials @5: raise Exception('Concrete classes derived from Expression must implement _compute_synthetic_partials()')"); ("_private/base_expression/expression.py", "_take_reduction_step @3: raise Exception('Concrete classes derived from Expression must implement _take_reduction_step()')"); ("_private/base_expression/expression.py", "_normalize_fully_reduced @3: raise Exception('Concrete classes derived from Expression must implement _normalize_fully_reduced()')"); ("_private/base_expression/expression.py", "__pow__ @12: raise Exception(f'Expected exponent to be an Expression or int, found: {exponent}')"); ("_private/base_expression/n_ary_expression.py", "__init__ @6: raise Exception(f'Expressions must be composed of Expressions, found: {inner}')"); ("_private/base_expression/n_ary_expression.py", "_verify_domain_constraints @4: raise Exception('Concrete classes derived from NAryExpression must implement _verify_domain_constraints()')"); ("_private/base_expression/n_ary_expression.py", "_value_formula @4: raise Exception('Concrete classes derived from NAryExpression must implement _value_formula()')"); ("_private/base_expression/n_ary_expression.py", "_reducers @3: raise Exception('Concrete classes derived from NAryExpression must implement _reducers()')"); ("_private/base_expression/parameterized_unary_expression.py", "_to_string @3: raise Exception('Concrete classes derived from ParameterizedUnaryExpression must implement _to_string()')"); ("_private/base_expression/unary_expression.py", "__init__ @5: raise Exception(f'Expressions must be composed of Expressions, found: {inner}')"); ("_private/base_expression/unary_expression.py", "_verify_domain_constraints @4: raise Exception('Concrete classes derived from UnaryExpression must implement _verify_domain_constraints()')"); ("_private/base_expression/unary_expression.py", "_value_formula @4: raise Exception('Concrete classes derived from UnaryExpression must implement _value_formula()')"); ("_private/base_expression/unary_expression.py", "_numeric_partial_formula @5: raise Exception('Concrete classes derived from UnaryExpression must implement _numeric_partial_formula()')"); ("_private/base_expression/unary_expression.py", "_synthetic_partial_formula @4: raise Exception('Concrete classes derived from UnaryExpression must implement _synthetic_partial_formula()')"); ("_private/base_expression/unary_expression.py", "_reducers @3: raise Exception('Concrete classes derived from UnaryExpression must implement _reducers()')"); ("_private/expression/divide.py", "_verify_domain_constraints @7: raise er.DomainError('Divide(x, y) is not smooth around (x = 0, y = 0)')"); ("_private/expression/divide.py", "_verify_domain_constraints @9: raise er.DomainError('Divide(x, y) blows up around x != 0 and y = 0')"); ("_private/expression/exponential.py", "__init__ @7: raise er.DomainError(f'Exponential(x) must have a positive base, found: {base}')"); ("_private/expression/logarithm.py", "__init__ @7: raise er.DomainError('Logarithm(x) must have a positive base')"); ("_private/expression/logarithm.py", "__init__ @9: raise er.DomainError('Logarithm(x) cannot have base = 1')"); ("_private/expression/logarithm.py", "_verify_domain_constraints @5: raise er.DomainError('Logarithm(x) blows up around x = 0')"); ("_private/expression/logarithm.py", "_verify_domain_constraints @7: raise er.DomainError('Logarithm(x) is undefined for x < 0')"); ("_private/expression/nth_power.py", "__init__ @9: raise er.DomainError(f'NthPower() requires parameter n to be an int, found: {n}')"); ("_private/expression/nth_power.py", "__init__ @11: raise er.DomainError(f'NthPower() requires parameter n to be positive, found: {i}')"); ("_private/expression/nth_root.py", "__init__ @9: raise er.DomainError(f'NthRoot() requires parameter n to be an int, found: {n}')"); ("_private/expression/nth_root.py", "__init__ @11: raise er.DomainError(f'NthRoot() requires paramater n to be positive, found: {i}')"); ("_private/expression/nth_root.py", "_verify_domain_constraints @5: raise er.DomainError(f'NthRoot(x, n) is not defined at x = 0 when n = {self.n}')"); ("_private/expression/nth_root.py", "_verify_domain_constraints @7: raise er.DomainError(f'NthRoot(x, n) is not defined for negative x when n = {self.n}')"); ("_private/expression/power.py", "_verify_domain_constraints @7: raise er.DomainError('Power(x, y) is not smooth around x = 0 for y > 0')"); ("_private/expression/power.py", "_verify_domain_constraints @13: raise er.DomainError('Power(x, y) is undefined for x < 0')"); ("_private/expression/power.py", "_verify_domain_constraints @9: raise er.DomainError('Power(x, y) is not smooth around (x = 0, y = 0)')"); ("_private/expression/power.py", "_verify_domain_constraints @11: raise er.DomainError('Power(x, y) blows up around x = 0 for y < 0')"); ("_private/expression/reciprocal.py", "_verify_domain_constraints @5: raise er.DomainError('Reciprocal(x) blows up around x = 0')"); ("_private/expression/variable.py", "__init__ @6: raise Exception(f'Illegal variable name: {name}')"); ("_private/math_functions.py", "divide @6: raise er.DomainError('divide(x, y) is not smooth around (x = 0, y = 0)')"); ("_private/math_functions.py", "divide @8: raise er.DomainError('divide(x, y) blows up around x != 0 and y = 0')"); ("_private/math_functions.py", "reciprocal @4: raise er.DomainError('reciprocal(x) blows up around x = 0')"); ("_private/math_functions.py", "power @6: raise er.DomainError('power(x, y) is not smooth around x = 0 for y > 0')"); ("_private/math_functions.py", "power @12: raise er.DomainError('power(x, y) is undefined for x < 0')"); ("_private/math_functions.py", "power @8: raise er.DomainError('power(x, y) is not smooth around (x = 0, y = 0)')"); ("_private/math_functions.py", "power @10: raise er.DomainError('power(x, y) blows up around x = 0 for y < 0')"); ("_private/math_functions.py", "nth_power @5: raise er.DomainError(f'nth_power(x, n) is not defined for n = {n}')"); ("_private/math_functions.py", "nth_root @5: raise er.DomainError(f'nth_root(x, n) is not defined for n = {n}')"); ("_private/math_functions.py", "nth_root @12: raise er.DomainError(f'nth_root(x, n) is not defined at x = 0 for n = 2')"); ("_private/math_functions.py", "nth_root @14: raise er.DomainError(f'nth_root(x, n) is not defined for negative x for n = 2')"); ("_private/math_functions.py", "nth_root @19: raise er.DomainError(f'nth_root(x, n) is not defined at x = 0 for n = 3')"); ("_private/math_functions.py", "nth_root @28: raise er.DomainError(f'nth_root(x, n) is not defined at x = 0 for n = {n}')"); ("_private/math_functions.py", "nth_root @30: raise er.DomainError(f'nth_root(x, n) is not defined for negative x for n = {n}')"); ("_private/math_functions.py", "nth_root @35: raise er.DomainError(f'nth_root(x, n) is not defined at x = 0 for n = {n}')"); ("_private/math_functions.py", "exponential @5: raise er.DomainError(f'exponential(x) must have a positive base, found: {base}')"); ("_private/math_functions.py", "logarithm @5: raise er.DomainError('logarithm(x) must have a positive base')"); ("_private/math_functions.py", "logarithm @7: raise er.DomainError('logarithm(x) cannot have base = 1')"); ("_private/point.py", "coordinate @22: raise er.CoordinateMissing(f'Point has no coordinate for variable: {variable_name}')")].

Lemma raises_tied : gen_raises = model_raises.
Proof. reflexivity. Qed.

(** Which functions and methods exist, with their decorators and signatures, in source order. Method
    resolution is part of the meaning of the embeddings (a call on a node runs the method its class
    inherits): a method added to a class (a new dunder such as __bool__ or __radd__, an override),
    removed, or given another default changes that meaning without touching any translated body. *)
Definition model_defs : list (string * string) := [("_private/accumulators.py", "NumericPartialsAccumulator.__init__(self: NumericPartialsAccumulator)"); ("_private/accumulators.py", "NumericPartialsAccumulator.add_to(self: NumericPartialsAccumulator, variable: Variable | str, contribution: float)"); ("_private/accumulators.py", "NumericPartialsAccumulator.numeric_partials_for(self: NumericPartialsAccumulator, variable_names: Iterable[str])"); ("_private/accumulators.py", "SyntheticPartialsAccumulator.__init__(self: SyntheticPartialsAccumulator)"); ("_private/accumulators.py", "SyntheticPartialsAccumulator.add_to(self: SyntheticPartialsAccumulator, variable: Variable | str, contribution: Expression)"); ("_private/accumulators.py", "SyntheticPartialsAccumulator.synthetic_partials_for(self: SyntheticPartialsAccumulator, variable_names: Iterable[str])"); ("_private/base_expression/binary_expression.py", "BinaryExpression.__init__(self: BinaryExpression, left: Expression, right: Expression)"); ("_private/base_expression/binary_expression.py", "BinaryExpression._rebuild(self: BinaryExpression, left: Expression, right: Expression)"); ("_private/base_expression/binary_expression.py", "BinaryExpression._reset_evaluation_cache(self: BinaryExpression)"); ("_private/base_expression/binary_expression.py", "BinaryExpression._evaluate(self: BinaryExpression, point: Point)"); ("_private/base_expression/binary_expression.py", "BinaryExpression.@abstractmethod _verify_domain_constraints(self: BinaryExpression, left_value: float, right_value: float)"); ("_private/base_expression/binary_expression.py", "BinaryExpression.@abstractmethod _value_formula(self: BinaryExpression, left_value: float, right_value: float)"); ("_private/base_expression/binary_expression.py", "BinaryExpression._take_reduction_step(self: BinaryExpression)"); ("_private/base_expression/binary_expression.py", "BinaryExpression.@property @abstractmethod _reducers(self: BinaryExpression)"); ("_private/base_expression/binary_expression.py", "BinaryExpression._normalize_fully_reduced(self: BinaryExpression)"); ("_private/base_expression/binary_expression.py", "BinaryExpression.__eq__(self: BinaryExpression, other: Any)"); ("_private/base_expression/binary_expression.py", "BinaryExpression.__hash__(self: BinaryExpression)"); ("_private/base_expression/binary_expression.py", "BinaryExpression.__str__(self: BinaryExpression)"); ("_private/base_expression/binary_expression.py", "BinaryExpression.__repr__(self: BinaryExpression)"); ("_private/base_expression/expression.py", "Expression.__init__(self: Expression, variable_names: set[str])"); ("_private/base_expression/expression.py", "Expression.@abstractmethod _rebuild(self: Expression)"); ("_private/base_expression/expression.py", "Expression.at(self: Expression, point: Point | float)"); ("_private/base_expression/expression.py", "Expression.@abstractmethod _reset_evaluation_cache(self: Expression)"); ("_private/base_expression/expression.py", "Expression.@abstractmethod _evaluate(self: Expression, point: Point)"); ("_private/base_expression/expression.py", "Expression.@abstractmethod _numeric_partial(self: Expression, variable_name: str, point: Point)"); ("_private/base_expression/expression.py", "Expression.@abstractmethod _synthetic_partial(self: Expression, variable_name: str)"); ("_private/base_expression/expression.py", "Expression._numeric_partials(self: Expression, point: Point)"); ("_private/base_expression/expression.py", "Expression.@abstractmethod _compute_numeric_partials(self: Expression, accumulator: NumericPartialsAccumulator, multiplier: float, point: Point)"); ("_private/base_expression/expression.py", "Expression._synthetic_partials(self: Expression)"); ("_private/base_expression/expression.py", "Expression.@abstractmethod _compute_synthetic_partials(self: Expression, accumulator: SyntheticPartialsAccumulator, multiplier: Expression)"); ("_private/base_expression/expression.py", "Expression._normalize(self: Expression)"); ("_private/base_expression/expression.py", "Expression._fully_reduce(self: Expression)"); ("_private/base_expression/expression.py", "Expression.@abstractmethod _take_reduction_step(self: Expression)"); ("_private/base_expression/expression.py", "Expression._consolidate_expression_lacking_variables(self: Expression)"); ("_private/base_expression/expression.py", "Expression.@abstractmethod _normalize_fully_reduced(self: Expression)"); ("_private/base_expression/expression.py", "Expression.__neg__(self: Expression)"); ("_private/base_expression/expression.py", "Expression.__add__(self: Expression, other: Expression)"); ("_private/base_expression/expression.py", "Expression.__sub__(self: Expression, other: Expression)"); ("_private/base_expression/expression.py", "Expression.__mul__(self: Expression, other: Expression)"); ("_private/base_expression/expression.py", "Expression.__truediv__(self: Expression, other: Expression)"); ("_private/base_expression/expression.py", "Expression.__pow__(self: Expression, exponent: int | Expression)"); ("_private/base_expression/expression.py", "get_the_single_variable_name(expression: Expression, exception_message: str)"); ("_private/base_expression/expression.py", "first_of_given_type(expressions: list[Expression], expression_type: type)"); ("_private/base_expression/expression.py", "partition_by_given_type(expressions: list[Expression], expression_type: type)"); ("_private/base_expression/n_ary_expression.py", "NAryExpression.__init__(self: NAryExpression, *args: Expression)"); ("_private/base_expression/n_ary_expression.py", "NAryExpression._rebuild(self: NAryExpression, *args: Expression)"); ("_private/base_expression/n_ary_expression.py", "NAryExpression._reset_evaluation_cache(self: NAryExpression)"); ("_private/base_expression/n_ary_expression.py", "NAryExpression._evaluate(self: NAryExpression, point: Point)"); ("_private/base_expression/n_ary_expression.py", "NAryExpression.@abstractmethod _verify_domain_constraints(self: NAryExpression, *inner_values: float)"); ("_private/base_expression/n_ary_expression.py", "NAryExpression.@abstractmethod _value_formula(self: NAryExpression, *inner_values: float)"); ("_private/base_expression/n_ary_expression.py", "NAryExpression._take_reduction_step(self: NAryExpression)"); ("_private/base_expression/n_ary_expression.py", "NAryExpression.@property @abstractmethod _reducers(self: NAryExpression)"); ("_private/base_expression/n_ary_expression.py", "NAryExpression._normalize_fully_reduced(self: NAryExpression)"); ("_private/base_expression/n_ary_expression.py", "NAryExpression.__eq__(self: NAryExpression, other: Any)"); ("_private/base_expression/n_ary_expression.py", "NAryExpression.__hash__(self: NAryExpression)"); ("_private/base_expression/n_ary_expression.py", "NAryExpression.__str__(self: NAryExpression)"); ("_private/base_expression/n_ary_expression.py", "NAryExpression.__repr__(self: NAryExpression)"); ("_private/base_expression/parameterized_unary_expression.py", "ParameterizedUnaryExpression.__init__(self: ParameterizedUnaryExpression, inner: Expression, parameter: Any)"); ("_private/base_expression/parameterized_unary_expression.py", "ParameterizedUnaryExpression._rebuild(self: ParameterizedUnaryExpression, inner: Expression)"); ("_private/base_expression/parameterized_unary_expression.py", "ParameterizedUnaryExpression.__eq__(self: ParameterizedUnaryExpression, other: Any)"); ("_private/base_expression/parameterized_unary_expression.py", "ParameterizedUnaryExpression.__hash__(self: ParameterizedUnaryExpression)"); ("_private/base_expression/parameterized_unary_expression.py", "ParameterizedUnaryExpression.__str__(self: ParameterizedUnaryExpression)"); ("_private/base_expression/parameterized_unary_expression.py", "ParameterizedUnaryExpression.__repr__(self: ParameterizedUnaryExpression)"); ("_private/base_expression/parameterized_unary_expression.py", "ParameterizedUnaryExpression.@abstractmethod _to_string(self: ParameterizedUnaryExpression)"); ("_private/base_expression/unary_expression.py", "UnaryExpression.__init__(self: UnaryExpression, inner: Expression)"); ("_private/base_expression/unary_expression.py", "UnaryExpression._rebuild(self: UnaryExpression, inner: Expression)"); ("_private/base_expression/unary_expression.py", "UnaryExpression._reset_evaluation_cache(self: UnaryExpression)"); ("_private/base_expression/unary_expression.py", "UnaryExpression._evaluate(self: UnaryExpression, point: Point)"); ("_private/base_expression/unary_expression.py", "UnaryExpression.@abstractmethod _verify_domain_constraints(self: UnaryExpression, inner_value: float)"); ("_private/base_expression/unary_expression.py", "UnaryExpression.@abstractmethod _value_formula(self: UnaryExpression, inner_value: float)"); ("_private/base_expression/unary_expression.py", "UnaryExpression._numeric_partial(self: UnaryExpression, variable_name: str, point: Point)"); ("_private/base_expression/unary_expression.py", "UnaryExpression._synthetic_partial(self: UnaryExpression, variable_name: str)"); ("_private/base_expression/unary_expression.py", "UnaryExpression._compute_numeric_partials(self: UnaryExpression, accumulator: NumericPartialsAccumulator, multiplier: float, point: Point)"); ("_private/base_expression/unary_expression.py", "UnaryExpression._compute_synthetic_partials(self: UnaryExpression, accumulator: SyntheticPartialsAccumulator, multiplier: Expression)"); ("_private/base_expression/unary_expression.py", "UnaryExpression.@abstractmethod _numeric_partial_formula(self: UnaryExpression, point: Point, multiplier: float)"); ("_private/base_expression/unary_expression.py", "UnaryExpression.@abstractmethod _synthetic_partial_formula(self: UnaryExpression, multiplier: Expression)"); ("_private/base_expression/unary_expression.py", "UnaryExpression._take_reduction_step(self: UnaryExpression)"); ("_private/base_expression/unary_expression.py", "UnaryExpression.@property @abstractmethod _reducers(self: UnaryExpression)"); ("_private/base_expression/unary_expression.py", "UnaryExpression._normalize_fully_reduced(self: UnaryExpression)"); ("_private/base_expression/unary_expression.py", "UnaryExpression.__eq__(self: UnaryExpression, other: Any)"); ("_private/base_expression/unary_expression.py", "UnaryExpression.__hash__(self: UnaryExpression)"); ("_private/base_expression/unary_expression.py", "UnaryExpression.__str__(self: UnaryExpression)"); ("_private/base_expression/unary_expression.py", "UnaryExpression.__repr__(self: UnaryExpression)"); ("_private/derivative.py", "Derivative.__init__(self: Derivative, expression: Expression, compute_early: bool=False)"); ("_private/derivative.py", "Derivative.at(self: Derivative, point: Point | float)"); ("_private/derivative.py", "Derivative.as_expression(self: Derivative)"); ("_private/derivative.py", "Derivative.__eq__(self: Derivative, other: Any)"); ("_private/derivative.py", "Derivative.__hash__(self: Derivative)"); ("_private/derivative.py", "Derivative.__str__(self: Derivative)"); ("_private/derivative.py", "Derivative.__repr__(self: Derivative)"); ("_private/derivative.py", "Derivative._to_string(self: Derivative)"); ("_private/differential.py", "Differential.__init__(self: Differential, expression: Expression, compute_early: bool=False)"); ("_private/differential.py", "Differential.component(self: Differential, variable: Variable | str)"); ("_private/differential.py", "Differential.at(self: Differential, point: Point)"); ("_private/differential.py", "Differential.component_at(self: Differential, variable: Variable | str, point: Point)"); ("_private/differential.py", "Differential.__eq__(self: Differential, other: Any)"); ("_private/differential.py", "Differential.__hash__(self: Differential)"); ("_private/differential.py", "Differential.__str__(self: Differential)"); ("_private/differential.py", "Differential.__repr__(self: Differential)"); ("_private/differential.py", "Differential._to_string(self: Differential)"); ("_private/differential.py", "_initial_synthetic_partials(original_expression: Expression, compute_early: bool)"); ("_private/expression/add.py", "Add._verify_domain_constraints(self: Add, *inner_values: float)"); ("_private/expression/add.py", "Add._value_formula(self: Add, *inner_values: float)"); ("_private/expression/add.py", "Add._numeric_partial(self: Add, variable_name: str, point: Point)"); ("_private/expression/add.py", "Add._synthetic_partial(self: Add, variable_name: str)"); ("_private/expression/add.py", "Add._compute_numeric_partials(self: Add, accumulator: NumericPartialsAccumulator, multiplier: float, point: Point)"); ("_private/expression/add.py", "Add._compute_synthetic_partials(self: Add, accumulator: SyntheticPartialsAccumulator, multiplier: Expression)"); ("_private/expression/add.py", "Add.@property _reducers(self: Add)"); ("_private/expression/add.py", "Add._reduce_by_flattening_nested_sums(self: Add)"); ("_private/expression/add.py", "Add._reduce_sum_by_eliminating_zeros(self: Add)"); ("_private/expression/add.py", "Add._reduce_sum_by_consolidating_logarithms(self: Add)"); ("_private/expression/add.py", "Add._reduce_sum_by_consolidating_constants(self: Add)"); ("_private/expression/add.py", "Add._normalize_fully_reduced(self: Add)"); ("_private/expression/add.py", "_simplified_Add(terms: list[Expression])"); ("_private/expression/constant.py", "Constant.__init__(self: Constant, value: float)"); ("_private/expression/constant.py", "Constant._rebuild(self: Constant)"); ("_private/expression/constant.py", "Constant._reset_evaluation_cache(self: Constant)"); ("_private/expression/constant.py", "Constant._evaluate(self: Constant, point: Point)"); ("_private/expression/constant.py", "Constant._numeric_partial(self: Constant, variable_name: str, point: Point)"); ("_private/expression/constant.py", "Constant._synthetic_partial(self: Constant, variable_name: str)"); ("_private/expression/constant.py", "Constant._compute_numeric_partials(self: Constant, accumulator: NumericPartialsAccumulator, multiplier: float, point: Point)"); ("_private/expression/constant.py", "Constant._compute_synthetic_partials(self: Constant, accumulator: SyntheticPartialsAccumulator, multiplier: Expression)"); ("_private/expression/constant.py", "Constant._take_reduction_step(self: Constant)"); ("_private/expression/constant.py", "Constant._normalize_fully_reduced(self: Constant)"); ("_private/expression/constant.py", "Constant.__eq__(self: Constant, other: Any)"); ("_private/expression/constant.py", "Constant.__hash__(self: Constant)"); ("_private/expression/constant.py", "Constant.__str__(self: Constant)"); ("_private/expression/constant.py", "Constant.__repr__(self: Constant)"); ("_private/expression/cosine.py", "Cosine._verify_domain_constraints(self: Cosine, inner_value: float)"); ("_private/expression/cosine.py", "Cosine._value_formula(self: Cosine, inner_value: float)"); ("_private/expression/cosine.py", "Cosine._numeric_partial_formula(self: Cosine, point: Point, multiplier: float)"); ("_private/expression/cosine.py", "Cosine._synthetic_partial_formula(self: Cosine, multiplier: Expression)"); ("_private/expression/cosine.py", "Cosine.@property _reducers(self: Cosine)"); ("_private/expression/cosine.py", "Cosine._reduce_cosine_of_negation(self: Cosine)"); ("_private/expression/divide.py", "Divide._verify_domain_constraints(self: Divide, left_value: float, right_value: float)"); ("_private/expression/divide.py", "Divide._value_formula(self: Divide, left_value: float, right_value: float)"); ("_private/expression/divide.py", "Divide._numeric_partial(self: Divide, variable_name: str, point: Point)"); ("_private/expression/divide.py", "Divide._synthetic_partial(self: Divide, variable_name: str)"); ("_private/expression/divide.py", "Divide._compute_numeric_partials(self: Divide, accumulator: NumericPartialsAccumulator, multiplier: float, point: Point)"); ("_private/expression/divide.py", "Divide._compute_synthetic_partials(self: Divide, accumulator: SyntheticPartialsAccumulator, multiplier: Expression)"); ("_private/expression/divide.py", "Divide._numeric_partial_formula_left(self: Divide, point: Point, multiplier: float)"); ("_private/expression/divide.py", "Divide._synthetic_partial_formula_left(self: Divide, multiplier: Expression)"); ("_private/expression/divide.py", "Divide._numeric_partial_formula_right(self: Divide, point: Point, multiplier: float)"); ("_private/expression/divide.py", "Divide._synthetic_partial_formula_right(self: Divide, multiplier: Expression)"); ("_private/expression/divide.py", "Divide.@property _reducers(self: Divide)"); ("_private/expression/divide.py", "Divide._reduce_divide_to_multiplying_with_reciprocal(self: Divide)"); ("_private/expression/exponential.py", "Exponential.__init__(self: Exponential, inner: Expression, base: float=math.e)"); ("_private/expression/exponential.py", "Exponential.@property base(self: Exponential)"); ("_private/expression/exponential.py", "Exponential._to_string(self: Exponential)"); ("_private/expression/exponential.py", "Exponential._verify_domain_constraints(self: Exponential, inner_value: float)"); ("_private/expression/exponential.py", "Exponential._value_formula(self: Exponential, inner_value: float)"); ("_private/expression/exponential.py", "Exponential._numeric_partial_formula(self: Exponential, point: Point, multiplier: float)"); ("_private/expression/exponential.py", "Exponential._synthetic_partial_formula(self: Exponential, multiplier: Expression)"); ("_private/expression/exponential.py", "Exponential.@property _reducers(self: Exponential)"); ("_private/expression/exponential.py", "Exponential._reduce_exponential_of_logarithm(self: Exponential)"); ("_private/expression/exponential.py", "Exponential._reduce_exponential_of_negation(self: Exponential)"); ("_private/expression/logarithm.py", "Logarithm.__init__(self: Logarithm, inner: Expression, base: float=math.e)"); ("_private/expression/logarithm.py", "Logarithm.@property base(self: Logarithm)"); ("_private/expression/logarithm.py", "Logarithm._to_string(self: Logarithm)"); ("_private/expression/logarithm.py", "Logarithm._verify_domain_constraints(self: Logarithm, inner_value: float)"); ("_private/expression/logarithm.py", "Logarithm._value_formula(self: Logarithm, inner_value: float)"); ("_private/expression/logarithm.py", "Logarithm._numeric_partial_formula(self: Logarithm, point: Point, multiplier: float)"); ("_private/expression/logarithm.py", "Logarithm._synthetic_partial_formula(self: Logarithm, multiplier: Expression)"); ("_private/expression/logarithm.py", "Logarithm.@property _reducers(self: Logarithm)"); ("_private/expression/logarithm.py", "Logarithm._reduce_logarithm_of_exponential(self: Logarithm)"); ("_private/expression/logarithm.py", "Logarithm._reduce_logarithm_of_reciprocal(self: Logarithm)"); ("_private/expression/logarithm.py", "Logarithm._reduce_logarithm_of_nth_power(self: Logarithm)"); ("_private/expression/minus.py", "Minus._verify_domain_constraints(self: Minus, left_value: float, right_value: float)"); ("_private/expression/minus.py", "Minus._value_formula(self: Minus, left_value: float, right_value: float)"); ("_private/expression/minus.py", "Minus._numeric_partial(self: Minus, variable_name: str, point: Point)"); ("_private/expression/minus.py", "Minus._synthetic_partial(self: Minus, variable_name: str)"); ("_private/expression/minus.py", "Minus._compute_numeric_partials(self: Minus, accumulator: NumericPartialsAccumulator, multiplier: float, point: Point)"); ("_private/expression/minus.py", "Minus._compute_synthetic_partials(self: Minus, accumulator: SyntheticPartialsAccumulator, multiplier: Expression)"); ("_private/expression/minus.py", "Minus.@property _reducers(self: Minus)"); ("_private/expression/minus.py", "Minus._reduce_minus_to_sum_with_negation(self: Minus)"); ("_private/expression/multiply.py", "Multiply._verify_domain_constraints(self: Multiply, *inner_values: float)"); ("_private/expression/multiply.py", "Multiply._value_formula(self: Multiply, *inner_values: float)"); ("_private/expression/multiply.py", "Multiply._numeric_partial(self: Multiply, variable_name: str, point: Point)"); ("_private/expression/multiply.py", "Multiply._synthetic_partial(self: Multiply, variable_name: str)"); ("_private/expression/multiply.py", "Multiply._compute_numeric_partials(self: Multiply, accumulator: NumericPartialsAccumulator, multiplier: float, point: Point)"); ("_private/expression/multiply.py", "Multiply._compute_synthetic_partials(self: Multiply, accumulator: SyntheticPartialsAccumulator, multiplier: Expression)"); ("_private/expression/multiply.py", "Multiply.@property _reducers(self: Multiply)"); ("_private/expression/multiply.py", "Multiply._reduce_by_flattening_nested_products(self: Multiply)"); ("_private/expression/multiply.py", "Multiply._reduce_product_when_multiplying_by_zero(self: Multiply)"); ("_private/expression/multiply.py", "Multiply._reduce_product_by_eliminating_ones(self: Multiply)"); ("_private/expression/multiply.py", "Multiply._reduce_product_by_eliminating_negations(self: Multiply)"); ("_private/expression/multiply.py", "Multiply._reduce_product_by_consolidating_nth_powers(self: Multiply)"); ("_private/expression/multiply.py", "Multiply._reduce_product_by_consolidating_nth_roots(self: Multiply)"); ("_private/expression/multiply.py", "Multiply._reduce_product_by_consolidating_exponentials(self: Multiply)"); ("_private/expression/multiply.py", "Multiply._reduce_product_by_consolidating_constants(self: Multiply)"); ("_private/expression/multiply.py", "Multiply._normalize_fully_reduced(self: Multiply)"); ("_private/expression/multiply.py", "_simplified_Multiply(terms: list[Expression])"); ("_private/expression/negation.py", "Negation._verify_domain_constraints(self: Negation, inner_value: float)"); ("_private/expression/negation.py", "Negation._value_formula(self: Negation, inner_value: float)"); ("_private/expression/negation.py", "Negation._numeric_partial_formula(self: Negation, point: Point, multiplier: float)"); ("_private/expression/negation.py", "Negation._synthetic_partial_formula(self: Negation, multiplier: Expression)"); ("_private/expression/negation.py", "Negation.@property _reducers(self: Negation)"); ("_private/expression/negation.py", "Negation._reduce_negation_of_negation(self: Negation)"); ("_private/expression/negation.py", "Negation._reduce_negation_of_sum(self: Negation)"); ("_private/expression/nth_power.py", "NthPower.__init__(self: NthPower, inner: Expression, n: int)"); ("_private/expression/nth_power.py", "NthPower.@property n(self: NthPower)"); ("_private/expression/nth_power.py", "NthPower._to_string(self: NthPower)"); ("_private/expression/nth_power.py", "NthPower._verify_domain_constraints(self: NthPower, inner_value: float)"); ("_private/expression/nth_power.py", "NthPower._value_formula(self: NthPower, inner_value: float)"); ("_private/expression/nth_power.py", "NthPower._numeric_partial_formula(self: NthPower, point: Point, multiplier: float)"); ("_private/expression/nth_power.py", "NthPower._synthetic_partial_formula(self: NthPower, multiplier: Expression)"); ("_private/expression/nth_power.py", "NthPower.@property _reducers(self: NthPower)"); ("_private/expression/nth_power.py", "NthPower._reduce_nth_power_where_n_is_one(self: NthPower)"); ("_private/expression/nth_power.py", "NthPower._reduce_nth_power_of_mth_root(self: NthPower)"); ("_private/expression/nth_power.py", "NthPower._reduce_nth_power_of_mth_power(self: NthPower)"); ("_private/expression/nth_power.py", "NthPower._reduce_nth_power_of_negation(self: NthPower)"); ("_private/expression/nth_power.py", "NthPower._reduce_nth_power_of_reciprocal(self: NthPower)"); ("_private/expression/nth_power.py", "NthPower._reduce_nth_power_of_exponential(self: NthPower)"); ("_private/expression/nth_root.py", "NthRoot.__init__(self: NthRoot, inner: Expression, n: int)"); ("_private/expression/nth_root.py", "NthRoot.@property n(self: NthRoot)"); ("_private/expression/nth_root.py", "NthRoot._to_string(self: NthRoot)"); ("_private/expression/nth_root.py", "NthRoot._verify_domain_constraints(self: NthRoot, inner_value: float)"); ("_private/expression/nth_root.py", "NthRoot._value_formula(self: NthRoot, inner_value: float)"); ("_private/expression/nth_root.py", "NthRoot._numeric_partial_formula(self: NthRoot, point: Point, multiplier: float)"); ("_private/expression/nth_root.py", "NthRoot._synthetic_partial_formula(self: NthRoot, multiplier: Expression)"); ("_private/expression/nth_root.py", "NthRoot.@property _reducers(self: NthRoot)"); ("_private/expression/nth_root.py", "NthRoot._reduce_nth_root_where_n_is_one(self: NthRoot)"); ("_private/expression/nth_root.py", "NthRoot._reduce_nth_root_of_mth_power(self: NthRoot)"); ("_private/expression/nth_root.py", "NthRoot._reduce_nth_root_of_mth_root(self: NthRoot)"); ("_private/expression/nth_root.py", "NthRoot._reduce_odd_nth_root_of_negation(self: NthRoot)"); ("_private/expression/nth_root.py", "NthRoot._reduce_nth_root_of_reciprocal(self: NthRoot)"); ("_private/expression/power.py", "Power._verify_domain_constraints(self: Power, left_value: float, right_value: float)"); ("_private/expression/power.py", "Power._value_formula(self: Power, left_value: float, right_value: float)"); ("_private/expression/power.py", "Power._numeric_partial(self: Power, variable_name: str, point: Point)"); ("_private/expression/power.py", "Power._synthetic_partial(self: Power, variable_name: str)"); ("_private/expression/power.py", "Power._compute_numeric_partials(self: Power, accumulator: NumericPartialsAccumulator, multiplier: float, point: Point)"); ("_private/expression/power.py", "Power._compute_synthetic_partials(self: Power, accumulator: SyntheticPartialsAccumulator, multiplier: Expression)"); ("_private/expression/power.py", "Power._numeric_partial_formula_left(self: Power, point: Point, multiplier: float)"); ("_private/expression/power.py", "Power._synthetic_partial_formula_left(self: Power, multiplier: Expression)"); ("_private/expression/power.py", "Power._synthetic_partial_formula_right(self: Power, multiplier: Expression)"); ("_private/expression/power.py", "Power._numeric_partial_formula_right(self: Power, point: Point, multiplier: float)"); ("_private/expression/power.py", "Power.@property _reducers(self: Power)"); ("_private/expression/power.py", "Power._reduce_u_to_the_one(self: Power)"); ("_private/expression/power.py", "Power._reduce_u_to_the_zero(self: Power)"); ("_private/expression/power.py", "Power._reduce_one_to_the_u(self: Power)"); ("_private/expression/power.py", "Power._reduce_u_to_the_n_at_least_two(self: Power)"); ("_private/expression/power.py", "Power._reduce_u_to_the_negative_one(self: Power)"); ("_private/expression/power.py", "Power._reduce_power_with_constant_base(self: Power)"); ("_private/expression/power.py", "Power._reduce_power_of_power(self: Power)"); ("_private/expression/power.py", "Power._reduce_u_to_the_negation_of_v(self: Power)"); ("_private/expression/power.py", "Power._reduce_reciprocal_u__to_the_v(self: Power)"); ("_private/expression/reciprocal.py", "Reciprocal._verify_domain_constraints(self: Reciprocal, inner_value: float)"); ("_private/expression/reciprocal.py", "Reciprocal._value_formula(self: Reciprocal, inner_value: float)"); ("_private/expression/reciprocal.py", "Reciprocal._numeric_partial_formula(self: Reciprocal, point: Point, multiplier: float)"); ("_private/expression/reciprocal.py", "Reciprocal._synthetic_partial_formula(self: Reciprocal, multiplier: Expression)"); ("_private/expression/reciprocal.py", "Reciprocal.@property _reducers(self: Reciprocal)"); ("_private/expression/reciprocal.py", "Reciprocal._reduce_reciprocal_of_reciprocal(self: Reciprocal)"); ("_private/expression/reciprocal.py", "Reciprocal._reduce_reciprocal_of_negation(self: Reciprocal)"); ("_private/expression/reciprocal.py", "Reciprocal._reduce_reciprocal_of_product(self: Reciprocal)"); ("_private/expression/sine.py", "Sine._verify_domain_constraints(self: Sine, inner_value: float)"); ("_private/expression/sine.py", "Sine._value_formula(self: Sine, inner_value: float)"); ("_private/expression/sine.py", "Sine._numeric_partial_formula(self: Sine, point: Point, multiplier: float)"); ("_private/expression/sine.py", "Sine._synthetic_partial_formula(self: Sine, multiplier: Expression)"); ("_private/expression/sine.py", "Sine.@property _reducers(self: Sine)"); ("_private/expression/sine.py", "Sine._reduce_sine_of_negation(self: Sine)"); ("_private/expression/variable.py", "Variable.__init__(self: Variable, name: str)"); ("_private/expression/variable.py", "Variable._rebuild(self: Variable)"); ("_private/expression/variable.py", "Variable._reset_evaluation_cache(self: Variable)"); ("_private/expression/variable.py", "Variable._evaluate(self: Variable, point: Point)"); ("_private/expression/variable.py", "Variable._numeric_partial(self: Variable, variable_name: str, point: Point)"); ("_private/expression/variable.py", "Variable._synthetic_partial(self: Variable, variable_name: str)"); ("_private/expression/variable.py", "Variable._compute_numeric_partials(self: Variable, accumulator: NumericPartialsAccumulator, multiplier: float, point: Point)"); ("_private/expression/variable.py", "Variable._compute_synthetic_partials(self: Variable, accumulator: SyntheticPartialsAccumulator, multiplier: Expression)"); ("_private/expression/variable.py", "Variable._take_reduction_step(self: Variable)"); ("_private/expression/variable.py", "Variable._normalize_fully_reduced(self: Variable)"); ("_private/expression/variable.py", "Variable.__eq__(self: Variable, other: Any)"); ("_private/expression/variable.py", "Variable.__hash__(self: Variable)"); ("_private/expression/variable.py", "Variable.__str__(self: Variable)"); ("_private/expression/variable.py", "Variable.__repr__(self: Variable)"); ("_private/expression/variable.py", "get_variable_name(variable_or_name: Variable | str)"); ("_private/located_differential.py", "LocatedDifferential.__init__(self: LocatedDifferential, expression: Expression, point: Point, _private: Optional[dict[str, dict[str, float]]]=None)"); ("_private/located_differential.py", "LocatedDifferential.component(self: LocatedDifferential, variable: Variable | str)"); ("_private/located_differential.py", "LocatedDifferential.__eq__(self: LocatedDifferential, other: Any)"); ("_private/located_differential.py", "LocatedDifferential.__hash__(self: LocatedDifferential)"); ("_private/located_differential.py", "LocatedDifferential.__str__(self: LocatedDifferential)"); ("_private/located_differential.py", "LocatedDifferential.__repr__(self: LocatedDifferential)"); ("_private/located_differential.py", "LocatedDifferential._to_string(self: LocatedDifferential)"); ("_private/located_differential.py", "_initial_numeric_partials(original_expression: Expression, point: Point, _private: Optional[dict[str, dict[str, float]]])"); ("_private/math_functions.py", "add(*args: float)"); ("_private/math_functions.py", "minus(x: float, y: float)"); ("_private/math_functions.py", "negation(x: float)"); ("_private/math_functions.py", "multiply(*args: float)"); ("_private/math_functions.py", "divide(x: float, y: float)"); ("_private/math_functions.py", "reciprocal(x: float)"); ("_private/math_functions.py", "power(x: float, y: float)"); ("_private/math_functions.py", "nth_power(x: float, n: int)"); ("_private/math_functions.py", "nth_root(x: float, n: int)"); ("_private/math_functions.py", "exponential(x: float, base: float=math.e)"); ("_private/math_functions.py", "logarithm(x: float, base: float=math.e)"); ("_private/math_functions.py", "cosine(x: float)"); ("_private/math_functions.py", "sine(x: float)"); ("_private/partial.py", "Partial.__init__(self: Partial, expression: Expression, variable: Variable | str, compute_early: bool=False, _private: Optional[dict[str, Expression]]=None)"); ("_private/partial.py", "Partial.at(self: Partial, point: Point)"); ("_private/partial.py", "Partial.as_expression(self: Partial)"); ("_private/partial.py", "Partial.__eq__(self: Partial, other: Any)"); ("_private/partial.py", "Partial.__hash__(self: Partial)"); ("_private/partial.py", "Partial.__str__(self: Partial)"); ("_private/partial.py", "Partial.__repr__(self: Partial)"); ("_private/partial.py", "Partial._to_string(self: Partial)"); ("_private/partial.py", "_initial_synthetic_partial(original_expression: Expression, variable_name: str, compute_eagly: bool, _private: Optional[dict[str, Expression]])"); ("_private/partial.py", "_retrieve_synthetic_partial(original_expression: Expression, variable_name: str)"); ("_private/point.py", "Point.__init__(self: Point, /, **kwargs: float)"); ("_private/point.py", "Point.coordinate(self: Point, variable: Variable | str)"); ("_private/point.py", "Point.__eq__(self: Point, other: Any)"); ("_private/point.py", "Point.__hash__(self: Point)"); ("_private/point.py", "Point.__str__(self: Point)"); ("_private/point.py", "Point.__repr__(self: Point)"); ("_private/point.py", "Point._to_string(self: Point)"); ("_private/point.py", "point_on_number_line(variable_name: str, value: float)"); ("_private/utilities.py", "get_class_name(any: Any)"); ("_private/utilities.py", "is_integer(number: int | float)"); ("_private/utilities.py", "integer_from_integral_float(number: int | float)"); ("_private/utilities.py", "is_even(number: int)"); ("_private/utilities.py", "is_odd(number: int)"); ("_private/utilities.py", "list_without_entry_at(entries: list[U], i: int)"); ("_private/utilities.py", "list_with_updated_entry_at(entries: list[U], i: int, new_entry: U)"); ("_private/utilities.py", "first_match_by_predicate(entries: list[U], predicate: Callable[[U], bool])"); ("_private/utilities.py", "partition_by_predicate(entries: list[U], predicate: Callable[[U], bool])"); ("_private/utilities.py", "group_by_key(values: list[V], key_from_value: Callable[[V], U])"); ("_private/utilities.py", "map_dictionary_values(dictionary: dict[U, V], update_value: Callable[[U, V], W])")].

Lemma defs_tied : gen_defs = model_defs.
Proof. reflexivity. Qed.

(** Every import statement: what the module aliases used inside the translated bodies (mf, util, ex, er,
    pt, acc, va, base ...) denote *)
Definition model_imports : list (string * string) := [("__init__.py", "import smoothmath.expression"); ("__init__.py", "from smoothmath._private.errors import DomainError, CoordinateMissing"); ("__init__.py", "from smoothmath._private.point import Point"); ("__init__.py", "from smoothmath._private.base_expression.expression import Expression"); ("__init__.py", "from smoothmath._private.derivative import Derivative"); ("__init__.py", "from smoothmath._private.differential import Differential"); ("__init__.py", "from smoothmath._private.partial import Partial"); ("__init__.py", "from smoothmath._private.located_differential import LocatedDifferential"); ("_private/accumulators.py", "from __future__ import annotations"); ("_private/accumulators.py", "from typing import TYPE_CHECKING, Iterable"); ("_private/accumulators.py", "import smoothmath._private.expression.variable as va"); ("_private/accumulators.py", "import smoothmath._private.expression as ex"); ("_private/accumulators.py", "from smoothmath import Expression"); ("_private/accumulators.py", "from smoothmath.expression import Variable"); ("_private/base_expression/__init__.py", "from smoothmath._private.base_expression.expression import Expression"); ("_private/base_expression/__init__.py", "from smoothmath._private.base_expression.unary_expression import UnaryExpression"); ("_private/base_expression/__init__.py", "from smoothmath._private.base_expression.parameterized_unary_expression import ParameterizedUnaryExpression"); ("_private/base_expression/__init__.py", "from smoothmath._private.base_expression.binary_expression import BinaryExpression"); ("_private/base_expression/__init__.py", "from smoothmath._private.base_expression.n_ary_expression import NAryExpression"); ("_private/base_expression/binary_expression.py", "from __future__ import annotations"); ("_private/base_expression/binary_expression.py", "from typing import TYPE_CHECKING, Any, Callable, Optional"); ("_private/base_expression/binary_expression.py", "from abc import abstractmethod"); ("_private/base_expression/binary_expression.py", "import smoothmath._private.base_expression as base"); ("_private/base_expression/binary_expression.py", "import smoothmath._private.utilities as util"); ("_private/base_expression/binary_expression.py", "from smoothmath import Point, Expression"); ("_private/base_expression/expression.py", "from __future__ import annotations"); ("_private/base_expression/expression.py", "from typing import TYPE_CHECKING, Any, Optional"); ("_private/base_expression/expression.py", "from abc import ABC, abstractmethod"); ("_private/base_expression/expression.py", "import logging"); ("_private/base_expression/expression.py", "import smoothmath._private.errors as er"); ("_private/base_expression/expression.py", "import smoothmath._private.point as pt"); ("_private/base_expression/expression.py", "import smoothmath._private.expression as ex"); ("_private/base_expression/expression.py", "import smoothmath._private.accumulators as acc"); ("_private/base_expression/expression.py", "import smoothmath._private.utilities as util"); ("_private/base_expression/expression.py", "from smoothmath import Point"); ("_private/base_expression/expression.py", "from smoothmath.expression import Add, Minus, Negation, Multiply, Divide, Power, NthPower"); ("_private/base_expression/expression.py", "from smoothmath._private.accumulators import NumericPartialsAccumulator, SyntheticPartialsAccumulator"); ("_private/base_expression/n_ary_expression.py", "from __future__ import annotations"); ("_private/base_expression/n_ary_expression.py", "from typing import TYPE_CHECKING, Any, Callable, Optional"); ("_private/base_expression/n_ary_expression.py", "from abc import abstractmethod"); ("_private/base_expression/n_ary_expression.py", "import smoothmath._private.base_expression as base"); ("_private/base_expression/n_ary_expression.py", "import smoothmath._private.utilities as util"); ("_private/base_expression/n_ary_expression.py", "from smoothmath import Point, Expression"); ("_private/base_expression/parameterized_unary_expression.py", "from __future__ import annotations"); ("_private/base_expression/parameterized_unary_expression.py", "from typing import TYPE_CHECKING, Any"); ("_private/base_expression/parameterized_unary_expression.py", "from abc import abstractmethod"); ("_private/base_expression/parameterized_unary_expression.py", "import smoothmath._private.base_expression as base"); ("_private/base_expression/parameterized_unary_expression.py", "import smoothmath._private.utilities as util"); ("_private/base_expression/parameterized_unary_expression.py", "from smoothmath import Expression"); ("_private/base_expression/unary_expression.py", "from __future__ import annotations"); ("_private/base_expression/unary_expression.py", "from typing import TYPE_CHECKING, Any, Callable, Optional"); ("_private/base_expression/unary_expression.py", "from abc import abstractmethod"); ("_private/base_expression/unary_expression.py", "import smoothmath._private.base_expression as base"); ("_private/base_expression/unary_expression.py", "import smoothmath._private.utilities as util"); ("_private/base_expression/unary_expression.py", "from smoothmath import Point, Expression"); ("_private/base_expression/unary_expression.py", "from smoothmath._private.accumulators import NumericPartialsAccumulator, SyntheticPartialsAccumulator"); ("_private/derivative.py", "from __future__ import annotations"); ("_private/derivative.py", "from typing import TYPE_CHECKING, Any"); ("_private/derivative.py", "import smoothmath._private.partial as pa"); ("_private/derivative.py", "import smoothmath._private.point as pt"); ("_private/derivative.py", "import smoothmath._private.base_expression.expression as be"); ("_private/derivative.py", "from smoothmath import Point, Expression, Partial"); ("_private/differential.py", "from __future__ import annotations"); ("_private/differential.py", "from typing import TYPE_CHECKING, Any, Optional"); ("_private/differential.py", "import smoothmath._private.partial as pa"); ("_private/differential.py", "import smoothmath._private.located_differential as ld"); ("_private/differential.py", "import smoothmath._private.expression.variable as va"); ("_private/differential.py", "import smoothmath._private.utilities as util"); ("_private/differential.py", "from smoothmath import Point, Expression, Partial, LocatedDifferential"); ("_private/differential.py", "from smoothmath.expression import Variable"); ("_private/errors.py", "from __future__ import annotations"); ("_private/expression/__init__.py", "from smoothmath._private.expression.variable import Variable"); ("_private/expression/__init__.py", "from smoothmath._private.expression.constant import Constant"); ("_private/expression/__init__.py", "from smoothmath._private.expression.add import Add"); ("_private/expression/__init__.py", "from smoothmath._private.expression.minus import Minus"); ("_private/expression/__init__.py", "from smoothmath._private.expression.negation import Negation"); ("_private/expression/__init__.py", "from smoothmath._private.expression.multiply import Multiply"); ("_private/expression/__init__.py", "from smoothmath._private.expression.divide import Divide"); ("_private/expression/__init__.py", "from smoothmath._private.expression.reciprocal import Reciprocal"); ("_private/expression/__init__.py", "from smoothmath._private.expression.power import Power"); ("_private/expression/__init__.py", "from smoothmath._private.expression.nth_power import NthPower"); ("_private/expression/__init__.py", "from smoothmath._private.expression.nth_root import NthRoot"); ("_private/expression/__init__.py", "from smoothmath._private.expression.exponential import Exponential"); ("_private/expression/__init__.py", "from smoothmath._private.expression.logarithm import Logarithm"); ("_private/expression/__init__.py", "from smoothmath._private.expression.cosine import Cosine"); ("_private/expression/__init__.py", "from smoothmath._private.expression.sine import Sine"); ("_private/expression/add.py", "from __future__ import annotations"); ("_private/expression/add.py", "from typing import TYPE_CHECKING, Callable, Optional"); ("_private/expression/add.py", "import smoothmath._private.base_expression as base"); ("_private/expression/add.py", "import smoothmath._private.base_expression.expression as be"); ("_private/expression/add.py", "import smoothmath._private.expression as ex"); ("_private/expression/add.py", "import smoothmath._private.math_functions as mf"); ("_private/expression/add.py", "import smoothmath._private.utilities as util"); ("_private/expression/add.py", "from smoothmath import Point, Expression"); ("_private/expression/add.py", "from smoothmath.expression import Constant, Negation, Logarithm"); ("_private/expression/add.py", "from smoothmath._private.accumulators import NumericPartialsAccumulator, SyntheticPartialsAccumulator"); ("_private/expression/constant.py", "from __future__ import annotations"); ("_private/expression/constant.py", "from typing import TYPE_CHECKING, Any"); ("_private/expression/constant.py", "import smoothmath._private.base_expression as base"); ("_private/expression/constant.py", "import smoothmath._private.expression as ex"); ("_private/expression/constant.py", "from smoothmath import Point, Expression"); ("_private/expression/constant.py", "from smoothmath._private.accumulators import NumericPartialsAccumulator, SyntheticPartialsAccumulator"); ("_private/expression/cosine.py", "from __future__ import annotations"); ("_private/expression/cosine.py", "from typing import TYPE_CHECKING, Callable, Optional"); ("_private/expression/cosine.py", "import smoothmath._private.base_expression as base"); ("_private/expression/cosine.py", "import smoothmath._private.expression as ex"); ("_private/expression/cosine.py", "import smoothmath._private.math_functions as mf"); ("_private/expression/cosine.py", "from smoothmath import Point, Expression"); ("_private/expression/divide.py", "from __future__ import annotations"); ("_private/expression/divide.py", "from typing import TYPE_CHECKING, Callable, Optional"); ("_private/expression/divide.py", "import smoothmath._private.base_expression as base"); ("_private/expression/divide.py", "import smoothmath._private.expression as ex"); ("_private/expression/divide.py", "import smoothmath._private.math_functions as mf"); ("_private/expression/divide.py", "import smoothmath._private.errors as er"); ("_private/expression/divide.py", "from smoothmath import Point, Expression"); ("_private/expression/divide.py", "from smoothmath._private.accumulators import NumericPartialsAccumulator, SyntheticPartialsAccumulator"); ("_private/expression/exponential.py", "from __future__ import annotations"); ("_private/expression/exponential.py", "from typing import TYPE_CHECKING, Callable, Optional"); ("_private/expression/exponential.py", "import math"); ("_private/expression/exponential.py", "import smoothmath._private.base_expression as base"); ("_private/expression/exponential.py", "import smoothmath._private.expression as ex"); ("_private/expression/exponential.py", "import smoothmath._private.math_functions as mf"); ("_private/expression/exponential.py", "import smoothmath._private.errors as er"); ("_private/expression/exponential.py", "from smoothmath import Point, Expression"); ("_private/expression/logarithm.py", "from __future__ import annotations"); ("_private/expression/logarithm.py", "from typing import TYPE_CHECKING, Callable, Optional"); ("_private/expression/logarithm.py", "import math"); ("_private/expression/logarithm.py", "import smoothmath._private.base_expression as base"); ("_private/expression/logarithm.py", "import smoothmath._private.expression as ex"); ("_private/expression/logarithm.py", "import smoothmath._private.math_functions as mf"); ("_private/expression/logarithm.py", "import smoothmath._private.utilities as util"); ("_private/expression/logarithm.py", "import smoothmath._private.errors as er"); ("_private/expression/logarithm.py", "from smoothmath import Point, Expression"); ("_private/expression/minus.py", "from __future__ import annotations"); ("_private/expression/minus.py", "from typing import TYPE_CHECKING, Callable, Optional"); ("_private/expression/minus.py", "import smoothmath._private.base_expression as base"); ("_private/expression/minus.py", "import smoothmath._private.expression as ex"); ("_private/expression/minus.py", "import smoothmath._private.math_functions as mf"); ("_private/expression/minus.py", "from smoothmath import Point, Expression"); ("_private/expression/minus.py", "from smoothmath._private.accumulators import NumericPartialsAccumulator, SyntheticPartialsAccumulator"); ("_private/expression/multiply.py", "from __future__ import annotations"); ("_private/expression/multiply.py", "from typing import TYPE_CHECKING, Callable, Optional"); ("_private/expression/multiply.py", "import smoothmath._private.base_expression as base"); ("_private/expression/multiply.py", "import smoothmath._private.base_expression.expression as be"); ("_private/expression/multiply.py", "import smoothmath._private.expression as ex"); ("_private/expression/multiply.py", "import smoothmath._private.math_functions as mf"); ("_private/expression/multiply.py", "import smoothmath._private.utilities as util"); ("_private/expression/multiply.py", "from smoothmath import Point, Expression"); ("_private/expression/multiply.py", "from smoothmath.expression import Constant, Negation, Reciprocal, NthPower, NthRoot, Exponential"); ("_private/expression/multiply.py", "from smoothmath._private.accumulators import NumericPartialsAccumulator, SyntheticPartialsAccumulator"); ("_private/expression/negation.py", "from __future__ import annotations"); ("_private/expression/negation.py", "from typing import TYPE_CHECKING, Callable, Optional"); ("_private/expression/negation.py", "import smoothmath._private.base_expression as base"); ("_private/expression/negation.py", "import smoothmath._private.expression as ex"); ("_private/expression/negation.py", "import smoothmath._private.math_functions as mf"); ("_private/expression/negation.py", "from smoothmath import Point, Expression"); ("_private/expression/nth_power.py", "from __future__ import annotations"); ("_private/expression/nth_power.py", "from typing import TYPE_CHECKING, Callable, Optional"); ("_private/expression/nth_power.py", "import math"); ("_private/expression/nth_power.py", "import smoothmath._private.base_expression as base"); ("_private/expression/nth_power.py", "import smoothmath._private.expression as ex"); ("_private/expression/nth_power.py", "import smoothmath._private.math_functions as mf"); ("_private/expression/nth_power.py", "import smoothmath._private.utilities as util"); ("_private/expression/nth_power.py", "import smoothmath._private.errors as er"); ("_private/expression/nth_power.py", "from smoothmath import Point, Expression"); ("_private/expression/nth_root.py", "from __future__ import annotations"); ("_private/expression/nth_root.py", "from typing import TYPE_CHECKING, Callable, Optional"); ("_private/expression/nth_root.py", "import smoothmath._private.base_expression as base"); ("_private/expression/nth_root.py", "import smoothmath._private.expression as ex"); ("_private/expression/nth_root.py", "import smoothmath._private.math_functions as mf"); ("_private/expression/nth_root.py", "import smoothmath._private.utilities as util"); ("_private/expression/nth_root.py", "import smoothmath._private.errors as er"); ("_private/expression/nth_root.py", "from smoothmath import Point, Expression"); ("_private/expression/power.py", "from __future__ import annotations"); ("_private/expression/power.py", "from typing import TYPE_CHECKING, Callable, Optional"); ("_private/expression/power.py", "import math"); ("_private/expression/power.py", "import smoothmath._private.base_expression as base"); ("_private/expression/power.py", "import smoothmath._private.expression as ex"); ("_private/expression/power.py", "import smoothmath._private.utilities as util"); ("_private/expression/power.py", "import smoothmath._private.math_functions as mf"); ("_private/expression/power.py", "import smoothmath._private.errors as er"); ("_private/expression/power.py", "from smoothmath import Point, Expression"); ("_private/expression/power.py", "from smoothmath._private.accumulators import NumericPartialsAccumulator, SyntheticPartialsAccumulator"); ("_private/expression/reciprocal.py", "from __future__ import annotations"); ("_private/expression/reciprocal.py", "from typing import TYPE_CHECKING, Callable, Optional"); ("_private/expression/reciprocal.py", "import smoothmath._private.base_expression as base"); ("_private/expression/reciprocal.py", "import smoothmath._private.expression as ex"); ("_private/expression/reciprocal.py", "import smoothmath._private.math_functions as mf"); ("_private/expression/reciprocal.py", "import smoothmath._private.errors as er"); ("_private/expression/reciprocal.py", "from smoothmath import Point, Expression"); ("_private/expression/sine.py", "from __future__ import annotations"); ("_private/expression/sine.py", "from typing import TYPE_CHECKING, Callable, Optional"); ("_private/expression/sine.py", "import smoothmath._private.base_expression as base"); ("_private/expression/sine.py", "import smoothmath._private.expression as ex"); ("_private/expression/sine.py", "import smoothmath._private.math_functions as mf"); ("_private/expression/sine.py", "from smoothmath import Point, Expression"); ("_private/expression/variable.py", "from __future__ import annotations"); ("_private/expression/variable.py", "from typing import TYPE_CHECKING, Any"); ("_private/expression/variable.py", "import re"); ("_private/expression/variable.py", "import smoothmath._private.base_expression as base"); ("_private/expression/variable.py", "import smoothmath._private.expression as ex"); ("_private/expression/variable.py", "from smoothmath import Point, Expression"); ("_private/expression/variable.py", "from smoothmath._private.accumulators import NumericPartialsAccumulator, SyntheticPartialsAccumulator"); ("_private/located_differential.py", "from __future__ import annotations"); ("_private/located_differential.py", "from typing import TYPE_CHECKING, Any, Optional"); ("_private/located_differential.py", "import smoothmath._private.expression.variable as va"); ("_private/located_differential.py", "from smoothmath import Point, Expression"); ("_private/located_differential.py", "from smoothmath.expression import Variable"); ("_private/math_functions.py", "from __future__ import annotations"); ("_private/math_functions.py", "import math"); ("_private/math_functions.py", "import smoothmath._private.errors as er"); ("_private/math_functions.py", "import smoothmath._private.utilities as util"); ("_private/partial.py", "from __future__ import annotations"); ("_private/partial.py", "from typing import TYPE_CHECKING, Any, Optional"); ("_private/partial.py", "import smoothmath._private.expression.variable as va"); ("_private/partial.py", "from smoothmath import Point, Expression"); ("_private/partial.py", "from smoothmath.expression import Variable"); ("_private/point.py", "from __future__ import annotations"); ("_private/point.py", "from typing import TYPE_CHECKING, Any, Mapping"); ("_private/point.py", "import smoothmath._private.expression.variable as va"); ("_private/point.py", "import smoothmath._private.errors as er"); ("_private/point.py", "from smoothmath.expression import Variable"); ("_private/utilities.py", "from __future__ import annotations"); ("_private/utilities.py", "from typing import TypeVar, Any, Callable, Optional"); ("expression/__init__.py", "from smoothmath._private.expression import Variable, Constant, Add, Minus, Negation, Multiply, Divide, Reciprocal, Power, NthPower, NthRoot, Exponential, Logarithm, Cosine, Sine")].

Lemma imports_tied : gen_imports = model_imports.
Proof. reflexivity. Qed.
