(** The loops and list primitives of the SymAst interpreter, construct by construct,
    on lists of the shape [map h l]: each is the list function the model (Rules.v, Forward.v) is
    written with, applied to [l]. *)
From Coq Require Import ZArith List Bool String Lia.
From SM Require Import Num Syntax MathFun Forward Rules Normalize SymAst.
Import ListNotations.
Open Scope string_scope.
Open Scope list_scope.

(** ** Python ints that are lengths *)
Lemma Z_of_nat_eqb : forall a b, Z.eqb (Z.of_nat a) (Z.of_nat b) = Nat.eqb a b.
Proof.
  intros. destruct (Nat.eqb_spec a b) as [->|H]; [apply Z.eqb_refl | apply Z.eqb_neq; lia].
Qed.

Lemma Z_of_nat_leb : forall a b, Z.leb (Z.of_nat a) (Z.of_nat b) = Nat.leb a b.
Proof.
  intros. destruct (Nat.leb_spec a b); [apply Z.leb_le | apply Z.leb_gt]; lia.
Qed.

Lemma Z_even_of_nat : forall n, Z.even (Z.of_nat n) = Nat.even n.
Proof.
  induction n as [|n IH]; [reflexivity|].
  rewrite Nat2Z.inj_succ, Z.even_succ, Nat.even_succ, <- Z.negb_even, <- Nat.negb_even, IH. reflexivity.
Qed.

Lemma filter_true : forall (A : Type) (l : list A), filter (fun _ => true) l = l.
Proof. induction l as [|a l IH]; cbn; congruence. Qed.

Lemma filter_In_true : forall (A : Type) (f : A -> bool) (l : list A) (a : A), In a (filter f l) -> f a = true.
Proof. intros A f l a H. apply filter_In in H. tauto. Qed.

Section Lemmas.
  Context {T : Type} (N : NumOps T).
  Notation E := (expr T).
  Notation val := (val (T:=T)).

  Lemma as_exprs_map : forall (A : Type) (f : A -> E) (l : list A),
    as_exprs (map (fun a => VE (f a)) l) = Some (map f l).
  Proof. induction l as [|a l IH]; cbn [map as_exprs]; [reflexivity | rewrite IH; reflexivity]. Qed.

  Lemma as_exprs_VE : forall l : list E, as_exprs (map VE l) = Some l.
  Proof. intros l. rewrite <- (map_id l) at 2. apply (as_exprs_map E (fun e => e)). Qed.

  Lemma as_exprs_app : forall (a b : list val) (x y : list E),
    as_exprs a = Some x -> as_exprs b = Some y -> as_exprs (a ++ b) = Some (x ++ y).
  Proof.
    induction a as [|v a IH]; intros b x y Ha Hb.
    - cbn in Ha. inversion Ha; subst. exact Hb.
    - cbn [as_exprs app] in *. destruct v; try discriminate.
      destruct (as_exprs a) eqn:Ea; [|discriminate]. inversion Ha; subst.
      rewrite (IH b l y eq_refl Hb). reflexivity.
  Qed.

  Lemma as_nums_map : forall (A : Type) (f : A -> T) (l : list A),
    as_nums N (map (fun a => VN (f a)) l) = Some (map f l).
  Proof. induction l as [|a l IH]; cbn [map as_nums]; [reflexivity | rewrite IH; reflexivity]. Qed.

  Lemma nat_of_of_nat : forall n, nat_of (@VZ T (Z.of_nat n)) = Some n.
  Proof.
    intros. unfold nat_of. destruct (Z.leb_spec 0 (Z.of_nat n)); [|lia].
    rewrite Nat2Z.id. reflexivity.
  Qed.

  (** ** the loops of comprehensions, any/all, group_by_key, dictionary comprehensions *)
  Lemma comp_loop_map : forall (A : Type) (h : A -> val) (f : val -> option val) (keep : val -> option bool)
                               (g : A -> val) (p : A -> bool) (l : list A),
    (forall a, In a l -> keep (h a) = Some (p a)) ->
    (forall a, In a l -> p a = true -> f (h a) = Some (g a)) ->
    comp_loop f keep (map h l) = Some (map g (filter p l)).
  Proof.
    intros A h f keep g p l. induction l as [|a l IH]; intros Hk Hf; cbn [map comp_loop filter]; [reflexivity|].
    rewrite (Hk a (or_introl eq_refl)), IH.
    - destruct (p a) eqn:Hp; [rewrite (Hf a (or_introl eq_refl) Hp)|]; reflexivity.
    - intros b Hb. apply Hk. right; exact Hb.
    - intros b Hb. apply Hf. right; exact Hb.
  Qed.

  Lemma comp_loop_all : forall (A : Type) (h : A -> val) (f : val -> option val) (g : A -> val) (l : list A),
    (forall a, In a l -> f (h a) = Some (g a)) -> comp_loop f (fun _ => Some true) (map h l) = Some (map g l).
  Proof.
    intros A h f g l Hf. rewrite (comp_loop_map _ h _ _ g (fun _ => true) l), filter_true; [reflexivity | reflexivity|].
    intros a Ha _. exact (Hf a Ha).
  Qed.

  Lemma comp_loop_omapM : forall (f : val -> option val) (g : E -> option E) (l : list E),
    (forall e, In e l -> f (VE e) = match g e with Some x => Some (VE x) | None => None end) ->
    comp_loop f (fun _ => Some true) (map VE l) =
    match omapM g l with Some xs => Some (map VE xs) | None => None end.
  Proof.
    intros f g l. induction l as [|a l IH]; intros Hf; cbn [map comp_loop omapM]; [reflexivity|].
    rewrite IH by (intros e He; apply Hf; right; exact He).
    rewrite (Hf a (or_introl eq_refl)).
    destruct (g a) as [y|]; destruct (omapM g l); reflexivity.
  Qed.

  Lemma anyall_map : forall (all : bool) (A : Type) (h : A -> val) (f : val -> option val) (p : A -> bool)
                            (l : list A),
    (forall a, In a l -> f (h a) = Some (VB (p a))) ->
    anyall_loop all f (map h l) = Some (if all then forallb p l else existsb p l).
  Proof.
    intros all A h f p l. induction l as [|a l IH]; intros Hf; cbn [map anyall_loop forallb existsb].
    - destruct all; reflexivity.
    - rewrite (Hf a (or_introl eq_refl)), IH by (intros b Hb; apply Hf; right; exact Hb).
      destruct all, (p a); reflexivity.
  Qed.

  Lemma key_loop_map : forall (A : Type) (h : A -> val) (f : val -> option val) (k : A -> val) (l : list A),
    (forall a, In a l -> f (h a) = Some (k a)) ->
    key_loop f (map h l) = Some (map (fun a => (k a, h a)) l).
  Proof.
    intros A h f k l. induction l as [|a l IH]; intros Hf; cbn [map key_loop]; [reflexivity|].
    rewrite (Hf a (or_introl eq_refl)), IH; [reflexivity|].
    intros b Hb. apply Hf. right; exact Hb.
  Qed.

  Lemma kv_loop_map : forall (A B : Type) (hk hv : A -> val) (f : val -> val -> option B) (g : A -> B) (l : list A),
    (forall a, In a l -> f (hk a) (hv a) = Some (g a)) ->
    kv_loop f (map (fun a => (hk a, hv a)) l) = Some (map g l).
  Proof.
    intros A B hk hv f g l. induction l as [|a l IH]; intros Hf; cbn [map kv_loop]; [reflexivity|].
    rewrite (Hf a (or_introl eq_refl)), IH; [reflexivity|].
    intros b Hb. apply Hf. right; exact Hb.
  Qed.

  (** ** util.list_without_entry_at, enumerate *)
  Lemma without_remove_nth : forall (A : Type) (h : A -> val) (i : nat) (l : list A),
    without i (map h l) = map h (remove_nth i l).
  Proof.
    intros A h i l. revert i. induction l as [|a l IH]; intros i.
    - destruct i; reflexivity.
    - destruct i; cbn [map without remove_nth]; [reflexivity|]. rewrite IH. reflexivity.
  Qed.

  Lemma enum_loop_mapi : forall (f : nat -> val -> option val) (g : nat -> E -> E) (k : E -> E) (l : list E) (n : nat),
    (forall i a, f i (VE a) = Some (VE (g i (k a)))) ->
    enum_loop f n (map VE l) = Some (map VE (mapi_from n g (map k l))).
  Proof.
    intros f g k l. induction l as [|a l IH]; intros n Hf; cbn [map enum_loop mapi_from]; [reflexivity|].
    rewrite Hf, IH by exact Hf. reflexivity.
  Qed.

  (** ** be.partition_by_given_type, be.first_of_given_type *)
  Lemma partition_VE : forall cls (p : E -> bool) (l : list E), (forall e, is_cls cls e = p e) ->
    filter (val_is cls) (map VE l) = map VE (filter p l) /\
    filter (fun x => negb (val_is cls x)) (map VE l) = map VE (filter (fun e => negb (p e)) l).
  Proof.
    intros cls p l H. induction l as [|a l [IH1 IH2]]; cbn [map filter val_is]; [split; reflexivity|].
    rewrite H, IH1, IH2. destruct (p a); split; reflexivity.
  Qed.

  Lemma find_first_split : forall cls (f : E -> bool) (l : list E) (i : nat),
    (forall e, is_cls cls e = f e) ->
    find_first (val_is cls) i (map VE l) =
    match split_first f l with
    | Some (before, hit, _) => Some (i + List.length before, VE hit)
    | None => None
    end.
  Proof.
    intros cls f l i Hf. revert i.
    induction l as [|a l IH]; intros i; cbn [split_first map find_first val_is]; [reflexivity|].
    rewrite Hf. destruct (f a).
    - cbn [List.length]. rewrite Nat.add_0_r. reflexivity.
    - rewrite IH. destruct (split_first f l) as [[[b h] af]|]; [|reflexivity].
      cbn [List.length]. rewrite Nat.add_succ_r. reflexivity.
  Qed.

  (** ** util.group_by_key on values against [group_by_key] on the model's keys *)
  Section Groups.
    Context {K : Type} (keqb : K -> K -> bool) (inj : K -> val).
    Hypothesis inj_eqb : forall a b, key_eqb N (inj a) (inj b) = keqb a b.

    Definition embed (g : list (K * list E)) : list (val * list val) :=
      map (fun kv => (inj (fst kv), map VE (snd kv))) g.

    Lemma group_insert_embed : forall k (v : E) g,
      group_insert (key_eqb N) (inj k) (VE v) (embed g) = embed (group_insert keqb k v g).
    Proof.
      intros k v g. induction g as [|[k' vs] g IH]; cbn [embed map group_insert fst snd]; [reflexivity|].
      rewrite inj_eqb. destruct (keqb k k').
      - cbn [map fst snd]. rewrite map_app. reflexivity.
      - cbn [map fst snd]. f_equal. exact IH.
    Qed.

    Lemma groups_of_embed : forall (key : E -> K) (l : list E),
      groups_of N (map (fun e => (inj (key e), VE e)) l)
      = VD (map (fun kv => (inj (fst kv), VL (map VE (snd kv)))) (group_by_key keqb key l)).
    Proof.
      intros key l. unfold groups_of, group_by_key.
      change (@nil (val * list val)) with (embed []). generalize (@nil (K * list E)).
      induction l as [|a l IH]; intros g; cbn [map fold_left fst snd].
      - unfold embed. rewrite map_map. reflexivity.
      - rewrite group_insert_embed. apply IH.
    Qed.
  End Groups.

  Lemma as_exprs_VE_app : forall (x y : list E), as_exprs (map VE x ++ map VE y) = Some (x ++ y).
  Proof. intros. apply as_exprs_app; apply as_exprs_VE. Qed.

  Lemma as_nums_VN : forall l : list T, as_nums N (map VN l) = Some l.
  Proof. intros l. rewrite <- (map_id l) at 2. apply (as_nums_map T (fun x => x)). Qed.

  Lemma length_filter_VE : forall (l : list E), List.length (map (@VE T) l) = List.length l.
  Proof. intros; apply map_length. Qed.

  Lemma anyall_any_map : forall (A : Type) (h : A -> val) (f : val -> option val) (p : A -> bool) (l : list A),
    (forall a, In a l -> f (h a) = Some (VB (p a))) ->
    anyall_loop false f (map h l) = Some (existsb p l).
  Proof. exact (anyall_map false). Qed.

  Lemma anyall_all_VE : forall (f : val -> option val) (p : E -> bool) (l : list E),
    (forall e, f (VE e) = Some (VB (p e))) ->
    anyall_loop true f (map VE l) = Some (forallb p l).
  Proof. intros f p l Hf. apply (anyall_map true). intros a _. apply Hf. Qed.
End Lemmas.

Lemma group_by_key_elements : forall (K V : Type) (keqb : K -> K -> bool) (key : V -> K) (l : list V) x,
  In x (flat_map snd (group_by_key keqb key l)) <-> In x l.
Proof.
  intros K V keqb key l x. unfold group_by_key.
  assert (Hins : forall k v g, In x (flat_map snd (group_insert keqb k v g)) <-> v = x \/ In x (flat_map snd g)).
  { intros k v g. induction g as [|[k' ws] g IH]; cbn [group_insert flat_map snd]; [cbn; tauto|].
    destruct (keqb k k'); cbn [flat_map snd]; rewrite ?in_app_iff, ?IH; cbn; tauto. }
  enough (H : forall g, In x (flat_map snd (fold_left (fun g v => group_insert keqb (key v) v g) l g))
                        <-> In x l \/ In x (flat_map snd g)) by (rewrite H; cbn; tauto).
  induction l as [|a l IH]; intros g; cbn [fold_left]; [cbn; tauto|]. rewrite IH, Hins. cbn. tauto.
Qed.

Lemma group_members : forall (K V : Type) (keqb : K -> K -> bool) (key : V -> K) (l : list V) kk vs x,
  In (kk, vs) (group_by_key keqb key l) -> In x vs -> In x l.
Proof.
  intros K V keqb key l kk vs x Hg Hx. apply (group_by_key_elements K V keqb key).
  apply in_flat_map. exists (kk, vs). split; assumption.
Qed.

Section Interp.
  Context {T : Type} (N : NumOps T).
  Variable oracle : string -> list (val (T:=T)) -> option (val (T:=T)).
  Notation E := (expr T).
  Notation val := (val (T:=T)).
  Notation ev := (ev N oracle).

  (* t[:i] and t[i+1:] around the i-th entry *)
  Lemma ev_slice_before : forall r t i (before rest : list E),
    ev r t = Some (VL (map VE (before ++ rest))) -> ev r i = Some (VZ (Z.of_nat (List.length before))) ->
    ev r (XSlice t None (Some i)) = Some (VL (map VE before)).
  Proof.
    intros r t i b c H Hi. cbn [SymAst.ev]. rewrite H, Hi, nat_of_of_nat.
    rewrite firstn_map, firstn_app, firstn_all, Nat.sub_diag. cbn [firstn skipn]. rewrite app_nil_r. reflexivity.
  Qed.

  Lemma ev_slice_after : forall r t i (before : list E) (hit : E) (after : list E),
    ev r t = Some (VL (map VE (before ++ hit :: after))) ->
    ev r i = Some (VZ (Z.of_nat (List.length before) + 1)) ->
    ev r (XSlice t (Some i) None) = Some (VL (map VE after)).
  Proof.
    intros r t i b h a H Hi. cbn [SymAst.ev]. rewrite H, Hi.
    replace (Z.of_nat (List.length b) + 1)%Z with (Z.of_nat (S (List.length b))) by lia.
    rewrite nat_of_of_nat, firstn_all, skipn_map, skipn_app, skipn_all2 by lia.
    replace (S (List.length b) - List.length b) with 1 by lia. reflexivity.
  Qed.
End Interp.
