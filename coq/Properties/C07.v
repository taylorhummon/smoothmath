(** C07 — at a point that supplies the variables, every numeric derivative query, early or late,
    raises DomainError exactly where evaluating the expression does, and returns a number exactly
    where that does.  The early route is covered modulo KF-ROOT (the hypothesis [good_trace]). *)
From SM Require Import Spec.
From SM.proofs Require Import EvalSound OutcomeKinds Glue.

Theorem C07_fwd : Spec.C07_fwd.
Proof. exact (fwd_same_kind eval_total). Qed.
Theorem C07_rev : Spec.C07_rev.
Proof. exact (rev_same_kind eval_total). Qed.
Theorem C07_early : Spec.C07_early.
Proof. exact early_same_kind. Qed.

Print Assumptions C07_fwd.
Print Assumptions C07_rev.
Print Assumptions C07_early.
