(** C15 — the operators build exactly the named constructors; [a ** x] for a number [x] builds
    NthPower when [x] is an integer >= 1 and is rejected otherwise; operands that are neither
    expressions nor, for [**], numbers are rejected. *)
From SM Require Import SpecObjects.
From SM.proofs Require Import CtorOps.

Theorem C15_operators : SpecObjects.C15_operators.
Proof. exact operators. Qed.
Theorem C15_pow_integer : SpecObjects.C15_pow_integer.
Proof. exact pow_integer. Qed.
Theorem C15_rejects : SpecObjects.C15_rejects.
Proof. exact rejects. Qed.

Print Assumptions C15_operators.
Print Assumptions C15_pow_integer.
Print Assumptions C15_rejects.
