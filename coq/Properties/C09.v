(** C09 — answers do not depend on what was computed before.
    The evaluation cache: any history of numeric API calls over expressions sharing objects, from
    any initial cache contents, answers what fresh copies answer; without the reset it would not.
    The simplifier's flags: from any truthful table left behind by earlier simplifications, the
    result is the same whenever the step budget suffices.  For every number type. *)
From SM Require Import SpecStateful.
From SM.proofs Require Import History.

Theorem C09_reset_clean : SpecStateful.C09_reset_clean.
Proof. exact reset_clean. Qed.
Theorem C09_eval_s_refines : SpecStateful.C09_eval_s_refines.
Proof. exact eval_s_refines. Qed.
Theorem C09_history_independent : SpecStateful.C09_history_independent.
Proof. exact history_independent. Qed.
Theorem C09_no_reset_refuted : SpecStateful.C09_no_reset_refuted.
Proof. exact no_reset_refuted. Qed.
Theorem C09_flags_step : SpecStateful.C09_flags_step.
Proof. exact flags_step. Qed.
Theorem C09_flags_fully_reduce : SpecStateful.C09_flags_fully_reduce.
Proof. exact flags_fully_reduce. Qed.
Theorem C09_flags_history_independent : SpecStateful.C09_flags_history_independent.
Proof. exact flags_history_independent. Qed.

Print Assumptions C09_reset_clean.
Print Assumptions C09_eval_s_refines.
Print Assumptions C09_history_independent.
Print Assumptions C09_no_reset_refuted.
Print Assumptions C09_flags_step.
Print Assumptions C09_flags_fully_reduce.
Print Assumptions C09_flags_history_independent.
