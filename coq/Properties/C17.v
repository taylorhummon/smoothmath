(** C17 — evaluation, the forward and the reverse sweep on a well-formed expression end in a
    result, DomainError or CoordinateMissing: no other exception escapes. *)
From SM Require Import Spec.
From SM.proofs Require Import EvalSound OutcomeKinds.

Theorem C17_no_pyerr : Spec.C17_no_pyerr.
Proof. exact (no_pyerr eval_no_pyerr). Qed.

Print Assumptions C17_no_pyerr.
