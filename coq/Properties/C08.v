(** C08 — simplification preserves meaning and never shrinks the domain.
    Every rule but one instance is sound; the even/even instance of
    NthRoot(NthPower(u, m), n) => NthPower(NthRoot(u, n), m) shrinks the domain (KF-ROOT): the
    refutations below keep the witnesses. *)
From SM Require Import Spec.
From SM.proofs Require Import RulesSoundB Glue.

Theorem C08_rules_sound : Spec.C08_rules_sound.
Proof. exact rules_sound. Qed.
Theorem C08_consolidate_sound : Spec.C08_consolidate_sound.
Proof. exact consolidate_sound. Qed.
Theorem C08_step_sound : Spec.C08_step_sound.
Proof. exact step_sound_closed. Qed.
Theorem C08_fully_reduce_sound : Spec.C08_fully_reduce_sound.
Proof. exact fully_reduce_sound_closed. Qed.
Theorem C08_nfr_sound : Spec.C08_nfr_sound.
Proof. exact nfr_sound_closed. Qed.
Theorem C08_normalize_sound : Spec.C08_normalize_sound.
Proof. exact normalize_sound_closed. Qed.
Theorem C08_root_of_power_domain_refuted : Spec.C08_root_of_power_domain_refuted.
Proof. exact root_of_power_domain_refuted. Qed.
(* the value form of the refutation, [Spec.C08_root_of_power_refuted], is false: [denote] is total
   and the rule preserves it; what the rule loses is the domain *)
Theorem C08_root_of_power_value_not_refuted : ~ Spec.C08_root_of_power_refuted.
Proof. exact root_of_power_refuted_is_false. Qed.

Print Assumptions C08_rules_sound.
Print Assumptions C08_consolidate_sound.
Print Assumptions C08_step_sound.
Print Assumptions C08_fully_reduce_sound.
Print Assumptions C08_nfr_sound.
Print Assumptions C08_normalize_sound.
Print Assumptions C08_root_of_power_domain_refuted.
Print Assumptions C08_root_of_power_value_not_refuted.
