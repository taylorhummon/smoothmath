(** C14 — at a point that supplies the variables of the expression, evaluation and differentiation
    never raise CoordinateMissing; without one of them evaluation returns no number; a bare number
    is accepted, and Derivative defined, exactly for at most one variable; a symbolic partial
    mentions no variable that the original lacks. *)
From SM Require Import Spec.
From SM.proofs Require Import EvalSound OutcomeKinds OrderIndep.

Theorem C14_no_missing : Spec.C14_no_missing.
Proof. exact (no_missing eval_no_missing). Qed.
Theorem C14_missing_not_val : Spec.C14_missing_not_val.
Proof. exact eval_missing_not_val. Qed.
Theorem C14_number_accepted : Spec.C14_number_accepted.
Proof. exact number_accepted. Qed.
Theorem C14_vars_of_results : Spec.C14_vars_of_results.
Proof. exact vars_of_results. Qed.

Print Assumptions C14_no_missing.
Print Assumptions C14_missing_not_val.
Print Assumptions C14_number_accepted.
Print Assumptions C14_vars_of_results.
