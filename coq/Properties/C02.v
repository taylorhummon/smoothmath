(** C02 — evaluation raises DomainError exactly at the points outside the domain, and returns the
    value at all others. *)
From SM Require Import Spec.
From SM.proofs Require Import EvalSound.

Theorem C02_domerr_iff : Spec.C02_domerr_iff.
Proof. exact eval_domerr_iff. Qed.
Theorem C02_total : Spec.C02_total.
Proof. exact eval_total. Qed.

Print Assumptions C02_domerr_iff.
Print Assumptions C02_total.
