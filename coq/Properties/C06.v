(** C06 — the differentiation routes give the same answers.
    Partial.at / Derivative.at / Differential.component(v).at / component_at (late) are the same
    model function by definition (Routes.v; tied to the four classes by TieRoute.v).  The
    theorems relate to it the components of LocatedDifferential(e, p) and of the late
    Differential(e).at(p), and the early Partial(e, v).at(p) (modulo KF-ROOT: the hypothesis
    [good_trace]); the early Differential routes are not among them.  Structural equality of the
    REVERSE symbolic route with the forward one is not claimed: it is known finding KF-ORDER. *)
From SM Require Import Spec SpecRoutes.
From SM.proofs Require Import Glue RouteObjects.

Theorem C06_located : Spec.C06_located.
Proof. exact located_agrees. Qed.
Theorem C06_early : Spec.C06_early.
Proof. exact early_agrees. Qed.

(* "Differential(e).component(v) equals Partial(e, v) and Differential(e).at(p) equals
   LocatedDifferential(e, p)": the object model of RouteAst.v (tied to the four classes by
   TieRoute.v) under the equality of Objects.v (tied to the __eq__ bodies by TieObj.v) *)
Theorem C06_component_equals_partial : SpecRoutes.C06_component_equals_partial.
Proof. exact component_equals_partial_R. Qed.
Theorem C06_at_equals_located : SpecRoutes.C06_at_equals_located.
Proof. exact at_equals_located_R. Qed.
Theorem C06_at_located_same_outcome : SpecRoutes.C06_at_located_same_outcome.
Proof. exact at_located_same_outcome. Qed.

Print Assumptions C06_located.
Print Assumptions C06_early.
Print Assumptions C06_component_equals_partial.
Print Assumptions C06_at_equals_located.
Print Assumptions C06_at_located_same_outcome.
