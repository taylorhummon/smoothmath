(** C12 — [==] on expressions is structural with numerically equal parameters, on points it is
    equality of the coordinates in any order; on these and on the derivative objects it is an
    equivalence and equal objects hash alike — for every number comparison that is an equivalence,
    as the one at R is. *)
From SM Require Import SpecObjects.
From SM.proofs Require Import EqHash.

Theorem C12_RInst_equiv : SpecObjects.C12_RInst_equiv.
Proof. exact RInst_equiv. Qed.
Theorem C12_eqb_structural : SpecObjects.C12_eqb_structural.
Proof. exact eqb_structural. Qed.
Theorem C12_eqb_equivalence : SpecObjects.C12_eqb_equivalence.
Proof. exact eqb_equivalence. Qed.
Theorem C12_eqb_hash : SpecObjects.C12_eqb_hash.
Proof. exact eqb_hash. Qed.
Theorem C12_point_eq : SpecObjects.C12_point_eq.
Proof. exact point_eq. Qed.
Theorem C12_point_perm : SpecObjects.C12_point_perm.
Proof. exact point_perm. Qed.
Theorem C12_point_hash : SpecObjects.C12_point_hash.
Proof. exact point_hash. Qed.
Theorem C12_py_eq_equivalence : SpecObjects.C12_py_eq_equivalence.
Proof. exact py_eq_equivalence. Qed.
Theorem C12_py_eq_hash : SpecObjects.C12_py_eq_hash.
Proof. exact py_eq_hash. Qed.

Print Assumptions C12_RInst_equiv.
Print Assumptions C12_eqb_structural.
Print Assumptions C12_eqb_equivalence.
Print Assumptions C12_eqb_hash.
Print Assumptions C12_point_eq.
Print Assumptions C12_point_perm.
Print Assumptions C12_point_hash.
Print Assumptions C12_py_eq_equivalence.
Print Assumptions C12_py_eq_hash.
