(** C04 — on the domain, [LocatedDifferential(e, p)] holds for every variable at once the
    forward-mode value (hence, with C03, the true partial); the contributions of a variable that
    occurs several times add up. *)
From SM Require Import Spec.
From SM.proofs Require Import EvalSound ReverseSound.

Theorem C04_rev_acc : Spec.C04_rev_acc.
Proof. exact (rev_acc eval_sound). Qed.
Theorem C04_rev_sound : Spec.C04_rev_sound.
Proof. exact (rev_sound eval_sound). Qed.

Print Assumptions C04_rev_acc.
Print Assumptions C04_rev_sound.
