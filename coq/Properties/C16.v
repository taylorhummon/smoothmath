(** C16 — the constructors accept exactly the documented arguments (expression operands, a
    positive integer [n], a positive base, not 1 for Logarithm, a variable name that passes the
    check), so what they build from well-formed operands is well formed. *)
From SM Require Import SpecObjects.
From SM.proofs Require Import CtorOps.

Theorem C16_nth : SpecObjects.C16_nth.
Proof. exact ctor_nth. Qed.
Theorem C16_base : SpecObjects.C16_base.
Proof. exact ctor_base. Qed.
Theorem C16_operands : SpecObjects.C16_operands.
Proof. exact ctor_operands. Qed.
Theorem C16_built_wf : SpecObjects.C16_built_wf.
Proof. exact built_wf. Qed.

Print Assumptions C16_nth.
Print Assumptions C16_base.
Print Assumptions C16_operands.
Print Assumptions C16_built_wf.
