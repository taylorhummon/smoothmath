(** C18 — no answer depends on the iteration order of the variable-name sets or on the order in
    which a point's coordinates were written. *)
From SM Require Import Spec.
From SM.proofs Require Import OrderIndep.

Theorem C18_enum_indep : Spec.C18_enum_indep.
Proof. exact enum_indep. Qed.
Theorem C18_point_perm : Spec.C18_point_perm.
Proof. exact point_perm. Qed.
Theorem C18_synth_enum_indep : Spec.C18_synth_enum_indep.
Proof. exact synth_enum_indep. Qed.
Theorem C18_single_name : Spec.C18_single_name.
Proof. exact single_name. Qed.

Print Assumptions C18_enum_indep.
Print Assumptions C18_point_perm.
Print Assumptions C18_synth_enum_indep.
Print Assumptions C18_single_name.
