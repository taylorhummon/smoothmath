(** C03 — on the domain of [e], the late [Partial(e, v).at(p)] is the true partial derivative of
    the function [e] denotes; it is 0 for a variable that does not occur. *)
From SM Require Import Spec.
From SM.proofs Require Import EvalSound Deriv.

Theorem C03_fwd_sound : Spec.C03_fwd_sound.
Proof. exact (fwd_sound eval_sound). Qed.
Theorem C03_fwd_absent : Spec.C03_fwd_absent.
Proof. exact (fwd_absent eval_sound). Qed.

Print Assumptions C03_fwd_sound.
Print Assumptions C03_fwd_absent.
