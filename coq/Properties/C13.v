(** C13 — the repr of an expression is the constructor call that builds it: reading it back gives
    an equal expression (provided a printed number reads back as an equal number), two different
    expressions never print identically, and derivative objects print as their constructor around
    the printed expression. *)
From SM Require Import SpecObjects.
From SM.proofs Require Import ShowParse.

Theorem C13_parse_show : SpecObjects.C13_parse_show.
Proof. exact parse_show. Qed.
Theorem C13_roundtrip_eq : SpecObjects.C13_roundtrip_eq.
Proof. exact roundtrip_eq. Qed.
Theorem C13_show_injective : SpecObjects.C13_show_injective.
Proof. exact show_injective. Qed.
Theorem C13_old_printer_refuted : SpecObjects.C13_old_printer_refuted.
Proof. exact old_printer_refuted. Qed.
Theorem C13_wrappers_injective : SpecObjects.C13_wrappers_injective.
Proof. exact wrappers_injective. Qed.

Print Assumptions C13_parse_show.
Print Assumptions C13_roundtrip_eq.
Print Assumptions C13_show_injective.
Print Assumptions C13_old_printer_refuted.
Print Assumptions C13_wrappers_injective.
