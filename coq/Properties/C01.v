(** C01 — at every point of its domain, [e.at(p)] returns the value of the tree read as real
    arithmetic; a bare number stands for the point of a one-variable expression. *)
From SM Require Import Spec.
From SM.proofs Require Import EvalSound.

Theorem C01_eval_sound : Spec.C01_eval_sound.
Proof. exact eval_sound. Qed.
Theorem C01_at_number : Spec.C01_at_number.
Proof. exact at_number_sound. Qed.

Print Assumptions C01_eval_sound.
Print Assumptions C01_at_number.
