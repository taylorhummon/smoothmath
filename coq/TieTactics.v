(** [ev] evaluates the goal of a tie with [lazy] and keeps folded what the two sides share (the
    number interface, the model's functions, the dictionary primitives of the embeddings), leaving
    a nest of conditionals over the same tests.  [name] is listed because [lazy] would unfold it
    inside implicit type arguments, where a later [destruct] on a term written with [name] does not
    find it.  RouteAst, AccAst and UtilAst are imported for the names in [ev]'s list only.
    [on] / [next] split on the outcome the model binds next; [andthen] is shared by the two
    continuation-passing block runners (SymRun, TieUtil). *)
From Coq Require Import ZArith List.
From SM Require Import Num Syntax Outcome MathFun Eval Forward Reverse Synth Objects
                       RouteAst AccAst UtilAst.

Ltac ev :=
  lazy -[name name_eqb
         nofZ nfloat n_e nsum nadd nsub nmul ndiv nneg npow npowi nsqrt ncbrt nln nsin ncos
         neqb nltb nleb nint nfinite
         prim_pow prim_powi prim_log prim_sqrt prim_cos prim_sin
         mf_add mf_minus mf_negation mf_multiply mf_divide mf_reciprocal mf_power mf_nth_power
         mf_nth_root mf_exponential mf_logarithm mf_cosine mf_sine
         eval fwd synth_fwd numeric_partials synthetic_partials the_single_variable_name var_names
         Eval.lookup slookup acc_set sacc_set Reverse.rev numeric_partials_for Objects.eqb point_eqb
         retrieve_synthetic_partial mk_partial partial_at partial_as_expression mk_located
         diff_component eval_values initial_synthetic_partials
         RouteAst.dictE RouteAst.dictN dict_find to_dictN rmap_loop dget dset dhas dput dappend
         nat_of_z remove_at update_at].

(* [on o x run]: both sides bind the outcome [o] next.  An error ends both alike; on a value, named
   [x], the file's evaluation tactic [run] goes on.  [next x run] reads [o] off the model's side. *)
Ltac on o x run := case o; [intros x; run | reflexivity ..].
Ltac next x run :=
  match goal with
  | |- _ = bind ?o _ => on o x run
  | |- _ = ?o => on o x run
  end.

(* the caller of a block goes on in the environment of one that fell through and passes a returned
   value up *)
Definition andthen {R V} (o : option (R + V)) (k : R -> option (R + V)) : option (R + V) :=
  match o with Some (inl r') => k r' | Some (inr v) => Some (inr v) | None => None end.
