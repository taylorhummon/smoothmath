(** math_functions.py and every [_verify_domain_constraints] method (GeneratedMath.v, run by
    [PyAst.call]) compute the model's [mf_*] (MathFun.v) and [verify_*] (Eval.v), for every number
    interface and all arguments. *)
From Coq Require Import ZArith List Bool String.
From SM Require Import Num Outcome MathFun Eval PyAst GeneratedMath TieTactics.
Import ListNotations.
Open Scope string_scope.

Section Tie.
  Context {T : Type} (N : NumOps T).
  Definition ret (o : outcome T) : outcome (option T) := omap Some o.
  Definition none (o : outcome unit) : outcome (option T) := omap (fun _ => None) o.

  Lemma flat_VT : forall l : list T,
    flat_map (fun v => match v with VT x => [x] | VZ z => [nofZ N z] | VList _ => [] end) (map VT l) = l.
  Proof. induction l as [|a l IH]; simpl; congruence. Qed.

  Lemma mf_add_tied : forall args, call N gen_mf_add (map VT args) = ret (Val (mf_add N args)).
  Proof. intros. with_strategy opaque [flat_map map] ev. rewrite flat_VT. reflexivity. Qed.

  Lemma mf_minus_tied : forall x y, call N gen_mf_minus [VT x; VT y] = ret (Val (mf_minus N x y)).
  Proof. reflexivity. Qed.

  Lemma mf_negation_tied : forall x, call N gen_mf_negation [VT x] = ret (Val (mf_negation N x)).
  Proof. reflexivity. Qed.

  Lemma multiply_loop : forall (body : env (T:=T) -> outcome (flow (T:=T))),
    (forall a r p, lookup_env "product" r = Some (VT p) ->
       body (("arg", VT a) :: r) = if neqb N a (nofZ N 0) then Val (inr (VZ 0))
                                   else Val (inl (("product", VT (nmul N p a)) :: ("arg", VT a) :: r))) ->
    forall (items : list T) (r : env (T:=T)) (p : T),
    lookup_env "product" r = Some (VT p) ->
    (for_loop body "arg" r items = Val (inr (VZ 0)) /\ mul_loop N p items = nofZ N 0) \/
    (exists r', for_loop body "arg" r items = Val (inl r') /\
                lookup_env "product" r' = Some (VT (mul_loop N p items))).
  Proof.
    intros body Hb. induction items as [|a items IH]; intros r p Hp.
    - right. exists r. split; [reflexivity | exact Hp].
    - cbn [for_loop mul_loop]. rewrite (Hb a r p Hp). unfold n0.
      destruct (neqb N a (nofZ N 0)); cbn [bind].
      + left. split; reflexivity.
      + apply IH. reflexivity.
  Qed.

  Lemma mf_multiply_tied : forall args,
    call N gen_mf_multiply (map VT args) = ret (Val (mf_multiply N args)).
  Proof.
    intros. unfold call, ret, mf_multiply, n1. cbn -[nofZ nfloat]. rewrite flat_VT.
    match goal with
    | |- context [for_loop ?b "arg" ?r0 args] =>
        set (body := b);
        destruct (multiply_loop body) with (items := args) (r := r0) (p := nfloat N (nofZ N 1))
          as [[H1 H2] | [r' [H1 H2]]]
    end.
    - (* the environment is known only through Hp: [cbn] leaves the lookup in it folded *)
      intros a r p Hp. unfold body. cbn -[nofZ neqb nmul]. destruct (neqb N a (nofZ N 0)); cbn -[nofZ neqb nmul]; [|rewrite Hp]; reflexivity.
    - reflexivity.
    - rewrite H1. cbn. rewrite H2. reflexivity.
    - rewrite H1. cbn. rewrite H2. reflexivity.
  Qed.

  Lemma mf_divide_tied : forall x y, call N gen_mf_divide [VT x; VT y] = ret (mf_divide N x y).
  Proof. intros. unfold mf_divide. ev. destruct (neqb N y (nofZ N 0)), (neqb N x (nofZ N 0)); reflexivity. Qed.

  Lemma mf_reciprocal_tied : forall x, call N gen_mf_reciprocal [VT x] = ret (mf_reciprocal N x).
  Proof. intros. unfold mf_reciprocal. ev. destruct (neqb N x (nofZ N 0)); reflexivity. Qed.

  Lemma mf_power_tied : forall x y, call N gen_mf_power [VT x; VT y] = ret (mf_power N x y).
  Proof.
    intros. unfold mf_power. ev. destruct (neqb N x (nofZ N 0)).
    - destruct (nltb N (nofZ N 0) y), (neqb N y (nofZ N 0)); reflexivity.
    - destruct (nltb N x (nofZ N 0)); [|destruct (prim_pow N x y)]; reflexivity.
  Qed.

  Lemma mf_nth_power_tied : forall x n,
    call N gen_mf_nth_power [VT x; VZ (Zpos n)] = ret (mf_nth_power N x n).
  Proof. intros. unfold mf_nth_power. ev. destruct (prim_powi N x n); reflexivity. Qed.

  Lemma mf_exponential_tied : forall x b,
    call N gen_mf_exponential [VT x; VT b] = ret (mf_exponential N x b).
  Proof. intros. unfold mf_exponential. ev. destruct (nleb N b (nofZ N 0)); [|destruct (prim_pow N b x)]; reflexivity. Qed.

  Lemma mf_logarithm_tied : forall x b,
    call N gen_mf_logarithm [VT x; VT b] = ret (mf_logarithm N x b).
  Proof.
    intros. unfold mf_logarithm. ev.
    destruct (nleb N b (nofZ N 0)); [|destruct (neqb N b (nofZ N 1)); [|destruct (prim_log N x b)]]; reflexivity.
  Qed.

  Lemma mf_cosine_tied : forall x, call N gen_mf_cosine [VT x] = ret (mf_cosine N x).
  Proof. intros. unfold mf_cosine. ev. destruct (prim_cos N x); reflexivity. Qed.

  Lemma mf_sine_tied : forall x, call N gen_mf_sine [VT x] = ret (mf_sine N x).
  Proof. intros. unfold mf_sine. ev. destruct (prim_sin N x); reflexivity. Qed.

  (* nth_root asks n == 1, n == 2, n == 3 and then whether n is even: with [n] taken apart into
     1, 2, 3 and the two parities of anything larger, each test computes *)
  Lemma mf_nth_root_tied : forall x n,
    call N gen_mf_nth_root [VT x; VZ (Zpos n)] = ret (mf_nth_root N x n).
  Proof.
    intros x n.
    destruct n as [[q|q|]|[q|q|]|]; unfold mf_nth_root; ev; try reflexivity.
    all: destruct (nltb N (nofZ N 0) x); [|destruct (neqb N x (nofZ N 0))]; try reflexivity.
    all: match goal with |- context [prim_pow N ?a ?b] => destruct (prim_pow N a b) | |- context [prim_sqrt N ?a] => destruct (prim_sqrt N a) end; reflexivity.
  Qed.

  Lemma verify_Divide_tied : forall l r,
    call N gen_verify_Divide [VT l; VT r] = none (verify_divide N l r).
  Proof. intros. ev. destruct (neqb N r (nofZ N 0)), (neqb N l (nofZ N 0)); reflexivity. Qed.

  Lemma verify_Reciprocal_tied : forall x,
    call N gen_verify_Reciprocal [VT x] = none (verify_reciprocal N x).
  Proof. intros. ev. destruct (neqb N x (nofZ N 0)); reflexivity. Qed.

  Lemma verify_Power_tied : forall l r,
    call N gen_verify_Power [VT l; VT r] = none (verify_power N l r).
  Proof.
    intros. ev. destruct (neqb N l (nofZ N 0)).
    - destruct (nltb N (nofZ N 0) r), (neqb N r (nofZ N 0)); reflexivity.
    - destruct (nltb N l (nofZ N 0)); reflexivity.
  Qed.

  Lemma verify_Logarithm_tied : forall x,
    call N gen_verify_Logarithm [VT x] = none (verify_logarithm N x).
  Proof. intros. ev. destruct (neqb N x (nofZ N 0)); [|destruct (nltb N x (nofZ N 0))]; reflexivity. Qed.

  Lemma verify_NthRoot_tied : forall x n,
    call N gen_verify_NthRoot [VT x; VZ (Zpos n)] = none (verify_nth_root N x n).
  Proof.
    intros x n.
    destruct n as [[q|q|]|[q|q|]|]; ev; destruct (neqb N x (nofZ N 0)), (nltb N x (nofZ N 0)); reflexivity.
  Qed.

  Lemma verify_trivial_tied : forall x y (l : list T),
    call N gen_verify_Add (map VT l) = Val None /\
    call N gen_verify_Multiply (map VT l) = Val None /\
    call N gen_verify_Minus [VT x; VT y] = Val None /\
    call N gen_verify_Negation [VT x] = Val None /\
    call N gen_verify_NthPower [VT x] = Val None /\
    call N gen_verify_Exponential [VT x] = Val None /\
    call N gen_verify_Cosine [VT x] = Val None /\
    call N gen_verify_Sine [VT x] = Val None.
  Proof. intros. repeat split; reflexivity. Qed.
End Tie.
