(** [_evaluate] and [_reset_evaluation_cache] of the three base classes and the two leaves
    (GeneratedCache.v, run by CacheAst) compute [eval_s] and [reset_s] of Stateful.v, for every number
    interface, point, store (whatever earlier calls left in the [_value] fields) and node object. *)
From Coq Require Import ZArith List Bool String.
From SM Require Import Num Syntax Outcome MathFun Eval Forward Stateful StatefulFacts CacheAst GeneratedCache TieTactics.
Import ListNotations.
Open Scope string_scope.
Open Scope list_scope.

Section Tie.
  Context {T : Type} (N : NumOps T).
  Variable p : point T.
  Notation S := (sexpr (T:=T)).

  (* the source computes the value of a node in two steps, where the model has one *)
  Lemma node_value_split : forall (e : S) (vs : list T),
    node_value N e vs = (_ <- node_verify N e vs ;; node_formula N e vs).
  Proof.
    intros e vs. destruct e; cbn [node_value node_verify node_formula];
      try reflexivity;
      try (destruct vs as [|x [|y [|z r]]]; cbn [bind]; reflexivity).
  Qed.

  (* [cbn] and not [TieTactics.ev]: it unfolds a loop over the children on [[a]] and [[a; b]] and
     leaves it on a list that is a variable, which a list of names given to [lazy] cannot tell apart. *)
  Ltac krun := cbn -[eval_s reset_s node_value node_verify node_formula sget sset sclear coordinate
                     kattr oid_of schildren].

  Lemma kattr_value : forall s e i, oid_of e = Some i ->
    kattr s (KVE e) "_value" = Some (match sget s i with Some v => KVN v | None => @KVNone T end).
  Proof. intros s e i Hi. cbn. rewrite Hi. reflexivity. Qed.

  Lemma knums_KVN : forall l : list T, knums (map KVN l) = Some l.
  Proof. induction l as [|a l IH]; cbn [map knums]; [reflexivity|]. rewrite IH. reflexivity. Qed.

  Lemma eval_Constant_tied : forall s c, kcall_eval N p gen_cache_Constant_eval s (SConst c) = eval_s N s p (SConst c).
  Proof. reflexivity. Qed.
  Lemma eval_Variable_tied : forall s x, kcall_eval N p gen_cache_Variable_eval s (SVar x) = eval_s N s p (SVar x).
  Proof. intros. unfold kcall_eval. krun. cbn [eval_s]. destruct (coordinate p x); reflexivity. Qed.
  Lemma reset_Constant_tied : forall s c, kcall_reset N p gen_cache_Constant_reset s (SConst c) = Some (reset_s s (SConst c)).
  Proof. reflexivity. Qed.
  Lemma reset_Variable_tied : forall s x, kcall_reset N p gen_cache_Variable_reset s (SVar x) = Some (reset_s s (SVar x)).
  Proof. reflexivity. Qed.

  (* The hypotheses of a per-kind lemma are what a subclass adds to its base class: an identity
     ([oid_of], the owner of a [_value] field) and an attribute ([kattr]) that holds the children.
     Where the body reads the attribute after a call or an assignment, the premise is about every
     store. *)
  Lemma eval_Unary_tied : forall s e i a,
    oid_of e = Some i -> schildren e = [a] -> kattr s (KVE e) "_inner" = Some (KVE a) ->
    kcall_eval N p gen_cache_UnaryExpression_eval s e = eval_s N s p e.
  Proof.
    intros s e i a Hi Hc Ha. rewrite eval_s_unfold, Hi, Hc. unfold kcall_eval. krun.
    rewrite (kattr_value s e i Hi). destruct (sget s i) as [v|] eqn:Hg; krun.
    { rewrite (kattr_value s e i Hi), Hg. reflexivity. }
    rewrite Ha. krun.
    case (eval_s N s p a); intros s1 oa; on oa x krun.
    rewrite node_value_split. on (node_verify N e [x]) u krun.
    on (node_formula N e [x]) y krun.
    rewrite Hi. krun. rewrite (kattr_value _ e i Hi), sget_sset, Pos.eqb_refl. reflexivity.
  Qed.

  Lemma reset_Unary_tied : forall s e i a,
    oid_of e = Some i -> schildren e = [a] -> (forall s', kattr s' (KVE e) "_inner" = Some (KVE a)) ->
    kcall_reset N p gen_cache_UnaryExpression_reset s e = Some (reset_s s e).
  Proof.
    intros s e i a Hi Hc Ha. rewrite reset_s_unfold, Hi, Hc. unfold kcall_reset. krun.
    rewrite Hi. krun. rewrite Ha. reflexivity.
  Qed.

  Lemma eval_Binary_tied : forall s e i a b,
    oid_of e = Some i -> schildren e = [a; b] ->
    kattr s (KVE e) "_left" = Some (KVE a) -> (forall s', kattr s' (KVE e) "_right" = Some (KVE b)) ->
    kcall_eval N p gen_cache_BinaryExpression_eval s e = eval_s N s p e.
  Proof.
    intros s e i a b Hi Hc Ha Hb. rewrite eval_s_unfold, Hi, Hc. unfold kcall_eval. krun.
    rewrite (kattr_value s e i Hi). destruct (sget s i) as [v|] eqn:Hg; krun.
    { rewrite (kattr_value s e i Hi), Hg. reflexivity. }
    rewrite Ha. krun.
    case (eval_s N s p a); intros s1 oa; on oa x krun.
    rewrite Hb. krun.
    case (eval_s N s1 p b); intros s2 ob; on ob y krun.
    rewrite node_value_split. on (node_verify N e [x; y]) u krun.
    on (node_formula N e [x; y]) z krun.
    rewrite Hi. krun. rewrite (kattr_value _ e i Hi), sget_sset, Pos.eqb_refl. reflexivity.
  Qed.

  Lemma reset_Binary_tied : forall s e i a b,
    oid_of e = Some i -> schildren e = [a; b] ->
    (forall s', kattr s' (KVE e) "_left" = Some (KVE a)) -> (forall s', kattr s' (KVE e) "_right" = Some (KVE b)) ->
    kcall_reset N p gen_cache_BinaryExpression_reset s e = Some (reset_s s e).
  Proof.
    intros s e i a b Hi Hc Ha Hb. rewrite reset_s_unfold, Hi, Hc. unfold kcall_reset. krun.
    rewrite Hi. krun. rewrite Ha. krun. rewrite Hb. reflexivity.
  Qed.

  Lemma kcomp_eval_list : forall (f : store (T:=T) -> kval -> kres kval) (l : list S) (s : store),
    (forall s e, f s (KVE e) = kbind (eval_s N s p e) (fun s1 x => kret s1 (KVN x))) ->
    kcomp_loop f s (map KVE l) = kbind (eval_list_s N p s l) (fun s1 vs => kret s1 (map KVN vs)).
  Proof.
    intros f l. induction l as [|a l IH]; intros s Hf; cbn [map kcomp_loop eval_list_s]; [reflexivity|].
    rewrite Hf. destruct (eval_s N s p a) as [s1 [x| | |k]]; cbn [kbind kret sbind]; try reflexivity.
    rewrite (IH s1 Hf).
    destruct (eval_list_s N p s1 l) as [s2 [vs| | |k]]; reflexivity.
  Qed.

  Lemma kfor_reset : forall (body : kenv (T:=T) -> store -> kval -> kres kflow),
    (forall r s e, exists r', body r s (KVE e) = (reset_s s e, Val (inl r'))) ->
    forall (l : list S) r s, exists r', kfor_loop body r s (map KVE l) = (fold_left reset_s l s, Val (inl r')).
  Proof.
    intros body Hb l. induction l as [|a l IH]; intros r s; cbn [map kfor_loop fold_left].
    - exists r. reflexivity.
    - destruct (Hb r s a) as [r1 H1]. rewrite H1. cbn [kbind]. apply IH.
  Qed.

  Lemma eval_NAry_tied : forall s e i l,
    oid_of e = Some i -> schildren e = l -> kattr s (KVE e) "_inners" = Some (KVL (map KVE l)) ->
    kcall_eval N p gen_cache_NAryExpression_eval s e = eval_s N s p e.
  Proof.
    intros s e i l Hi Hc Hl. rewrite eval_s_unfold, Hi, Hc. unfold kcall_eval. krun.
    rewrite (kattr_value s e i Hi). destruct (sget s i) as [v|] eqn:Hg; krun.
    { rewrite (kattr_value s e i Hi), Hg. reflexivity. }
    rewrite Hl. krun.
    rewrite (kcomp_eval_list _ l s) by (intros s0 e0; krun; destruct (eval_s N s0 p e0); reflexivity).
    case (eval_list_s N p s l); intros s1 o; on o vs krun.
    rewrite app_nil_r, knums_KVN, node_value_split. krun.
    on (node_verify N e vs) u krun.
    rewrite app_nil_r, knums_KVN. krun.
    on (node_formula N e vs) z krun.
    rewrite Hi. krun. rewrite (kattr_value _ e i Hi), sget_sset, Pos.eqb_refl. reflexivity.
  Qed.

  Lemma reset_NAry_tied : forall s e i l,
    oid_of e = Some i -> schildren e = l -> (forall s', kattr s' (KVE e) "_inners" = Some (KVL (map KVE l))) ->
    kcall_reset N p gen_cache_NAryExpression_reset s e = Some (reset_s s e).
  Proof.
    intros s e i l Hi Hc Hl. rewrite reset_s_unfold, Hi, Hc. unfold kcall_reset. krun.
    rewrite Hi. krun. rewrite Hl. krun.
    match goal with |- context [kfor_loop ?body ?r ?s0 _] =>
      destruct (kfor_reset body (fun r1 s1 e1 => ex_intro _ (("inner", KVE e1) :: r1) eq_refl) l r s0) as [r' Hr]
    end.
    rewrite Hr. reflexivity.
  Qed.

  Definition gen_eval (s : store (T:=T)) (e : S) : store * outcome T :=
    match e with
    | SConst _ => kcall_eval N p gen_cache_Constant_eval s e
    | SVar _ => kcall_eval N p gen_cache_Variable_eval s e
    | SAdd _ _ | SMul _ _ => kcall_eval N p gen_cache_NAryExpression_eval s e
    | SMinus _ _ _ | SDivide _ _ _ | SPower _ _ _ => kcall_eval N p gen_cache_BinaryExpression_eval s e
    | _ => kcall_eval N p gen_cache_UnaryExpression_eval s e
    end.

  Definition gen_reset (s : store (T:=T)) (e : S) : option store :=
    match e with
    | SConst _ => kcall_reset N p gen_cache_Constant_reset s e
    | SVar _ => kcall_reset N p gen_cache_Variable_reset s e
    | SAdd _ _ | SMul _ _ => kcall_reset N p gen_cache_NAryExpression_reset s e
    | SMinus _ _ _ | SDivide _ _ _ | SPower _ _ _ => kcall_reset N p gen_cache_BinaryExpression_reset s e
    | _ => kcall_reset N p gen_cache_UnaryExpression_reset s e
    end.

  Theorem eval_s_tied : forall s e, gen_eval s e = eval_s N s p e.
  Proof.
    intros s e. destruct e; unfold gen_eval.
    1: apply eval_Constant_tied.
    1: apply eval_Variable_tied.
    1-2: eapply eval_NAry_tied; reflexivity.
    1-3: eapply eval_Binary_tied; reflexivity.
    all: eapply eval_Unary_tied; reflexivity.
  Qed.

  Theorem reset_s_tied : forall s e, gen_reset s e = Some (reset_s s e).
  Proof.
    intros s e. destruct e; unfold gen_reset.
    1: apply reset_Constant_tied.
    1: apply reset_Variable_tied.
    1-2: eapply reset_NAry_tied; reflexivity.
    1-3: eapply reset_Binary_tied; reflexivity.
    all: eapply reset_Unary_tied; reflexivity.
  Qed.
End Tie.
