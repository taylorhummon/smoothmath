(** [_normalize_fully_reduced] of Add, Multiply, the unary and binary base classes and the leaves,
    and the helpers [_simplified_Add] / [_simplified_Multiply] (GeneratedSym.v, run by
    [SymAst.scall]) compute one unfolding of [Normalize.nfr], for every number interface and tree;
    calls that leave a method are answered by [norm_oracle]. *)
From Coq Require Import ZArith List Bool String.
From SM Require Import Num Syntax Outcome MathFun Eval Rules Driver Normalize SymAst SymLemmas SymRun GeneratedSym.
Import ListNotations.
Open Scope string_scope.
Open Scope list_scope.

Section Tie.
  Context {T : Type} (N : NumOps T).
  Notation E := (expr T).
  Notation val := (val (T:=T)).
  Variable norm : E -> option E.
  Variable pass : E -> option E.

  Definition ove (o : option E) : option val := match o with Some e => Some (VE e) | None => None end.

  Definition rebuild1 (e x : E) : option E :=
    match e with
    | Neg _ => Some (Neg x) | Recip _ => Some (Recip x) | Sin _ => Some (Sin x) | Cos _ => Some (Cos x)
    | NthPow _ n => Some (NthPow x n) | NthRoot _ n => Some (NthRoot x n)
    | Exp _ b => Some (Exp x b) | Log _ b => Some (Log x b)
    | _ => None
    end.
  Definition rebuild2 (e x y : E) : option E :=
    match e with
    | Minus _ _ => Some (Minus x y) | Divide _ _ => Some (Divide x y) | Power _ _ => Some (Power x y)
    | _ => None
    end.

  (* [t._normalize()] is any partial function [norm] (None = out of fuel),
     [t._normalize_fully_reduced()] any [pass], the two helpers what their own bodies compute (proved
     below), [_rebuild] "same class and parameter, new children".  No lemma relates that reading to
     StepAst.trebuild, to which TieRebuild.v ties the _rebuild methods: on Add and Multiply, which
     override the pass, [rebuild1] and [rebuild2] answer None where [trebuild] rebuilds. *)
  Definition norm_oracle (f : string) (args : list val) : option val :=
    if String.eqb f "_normalize" then
      match args with [VE t] => ove (norm t) | _ => None end
    else if String.eqb f "_normalize_fully_reduced" then
      match args with [VE t] => ove (pass t) | _ => None end
    else if String.eqb f "_simplified_Add" then
      match args with
      | [VL ts] => match as_exprs ts with Some l => Some (VE (simplified_add N l)) | None => None end
      | _ => None
      end
    else if String.eqb f "_simplified_Multiply" then
      match args with
      | [VL ts] => match as_exprs ts with Some l => Some (VE (simplified_multiply N l)) | None => None end
      | _ => None
      end
    else if String.eqb f "_rebuild" then
      match args with
      | [VE (Const c)] => Some (VE (Const c))
      | [VE (Var x)] => Some (VE (Var x))
      | [VE e; VE x] => ove (rebuild1 e x)
      | [VE e; VE x; VE y] => ove (rebuild2 e x y)
      | _ => None
      end
    else None.

  (* the helpers are module functions and have no self *)
  Definition callfn (f : sfun) (args : list val) : option val :=
    if Nat.eqb (List.length (s_params f)) (List.length args) then
      match sexec_block N norm_oracle (combine (s_params f) args) (s_body f) with
      | Some (inr v) => Some v
      | Some (inl _) => Some VNone
      | None => None
      end
    else None.

  (* [==] between lengths stays folded until the lists are known, [not] inside the partition until
     it is rewritten *)
  Ltac ev_sym_keep_eqb := with_strategy opaque [Z.eqb negb] ev_sym.

  Ltac simplified l :=
    unfold callfn; rewrite sexec_block_run; ev_sym_keep_eqb; rewrite map_length, (Z_of_nat_eqb _ 0), (Z_of_nat_eqb _ 1);
    destruct l as [|a [|b l]]; ev_sym; rewrite ?app_nil_r, ?as_exprs_VE; reflexivity.

  Lemma simplified_Add_tied : forall l : list E,
    callfn gen_sym_fn_simplified_Add [VL (map VE l)] = Some (VE (simplified_add N l)).
  Proof. intros l. simplified l. Qed.

  Lemma simplified_Multiply_tied : forall l : list E,
    callfn gen_sym_fn_simplified_Multiply [VL (map VE l)] = Some (VE (simplified_multiply N l)).
  Proof. intros l. simplified l. Qed.

  Definition runn (f : sfun) (e : E) : option val := scall N norm_oracle f (VE e) [].

  Lemma nfr_Constant_tied : forall c, runn gen_sym_Constant_normalize_fully_reduced (Const c) = Some (VE (Const c)).
  Proof. reflexivity. Qed.

  Lemma nfr_Variable_tied : forall x, runn gen_sym_Variable_normalize_fully_reduced (Var x) = Some (VE (Var x)).
  Proof. reflexivity. Qed.

  (* a node of a unary class is any [e] whose [_inner] attribute exists *)
  Lemma nfr_Unary_tied : forall e a, attr (VE e) "_inner" = Some (VE a) ->
    runn gen_sym_UnaryExpression_normalize_fully_reduced e =
    ove (match pass a with Some x => rebuild1 e x | None => None end).
  Proof.
    intros e a H. unfold runn, scall. cbn -[attr]. rewrite H. ev_sym.
    destruct (pass a); [destruct e|]; reflexivity.
  Qed.

  Lemma nfr_Binary_tied : forall e a b,
    attr (VE e) "_left" = Some (VE a) -> attr (VE e) "_right" = Some (VE b) ->
    runn gen_sym_BinaryExpression_normalize_fully_reduced e =
    ove (match pass a, pass b with Some x, Some y => rebuild2 e x y | _, _ => None end).
  Proof.
    intros e a b Ha Hb. unfold runn, scall. cbn -[attr]. rewrite Ha. cbn -[attr].
    destruct (pass a); [|reflexivity]. cbn -[attr]. rewrite Hb. ev_sym.
    destruct (pass b); [destruct e|]; reflexivity.
  Qed.

  Ltac nfr_nary l cls isX :=
    unfold partition_by, runn; rewrite scall_run by reflexivity; ev_sym_keep_eqb;
    destruct (partition_VE cls isX l) as [-> ->]; [intros []; reflexivity|];
    rewrite (comp_loop_omapM _ norm) by reflexivity;
    destruct (omapM norm _) as [misses|]; ev_sym_keep_eqb; [|reflexivity];
    rewrite (comp_loop_omapM _ (fun t => norm (inner_of t)))
      by (intros e He; apply filter_In_true in He; destruct e; try discriminate He; reflexivity);
    destruct (omapM _ (filter isX l)) as [hits|]; ev_sym_keep_eqb; [|reflexivity];
    rewrite !map_length, !(Z_of_nat_leb 1), !(Z_of_nat_eqb _ 0);
    destruct misses, hits; ev_sym; rewrite ?as_exprs_VE; reflexivity.

  Lemma nfr_Add_tied : forall l,
    runn gen_sym_Add_normalize_fully_reduced (Add l) =
    ove (let (negs, non_negs) := partition_by is_Neg l in
         match omapM norm non_negs, omapM (fun t => norm (inner_of t)) negs with
         | Some type_i, Some type_ii => Some (assemble_add N type_i type_ii)
         | _, _ => None
         end).
  Proof. intros l. nfr_nary l "Negation" (@is_Neg T). Qed.

  Lemma nfr_Multiply_tied : forall l,
    runn gen_sym_Multiply_normalize_fully_reduced (Mul l) =
    ove (let (recips, non_recips) := partition_by is_Recip l in
         match omapM norm non_recips, omapM (fun t => norm (inner_of t)) recips with
         | Some numer, Some denom => Some (assemble_multiply N numer denom)
         | _, _ => None
         end).
  Proof. intros l. nfr_nary l "Reciprocal" (@is_Recip T). Qed.

  Lemma nat_of_of_nat_0 : nat_of (@VZ T 0) = Some O.
  Proof. reflexivity. Qed.

  Lemma omapM_ext_in : forall (f g : E -> option E) (l : list E),
    (forall e, In e l -> f e = g e) -> omapM f l = omapM g l.
  Proof.
    intros f g l. induction l as [|a l IH]; intros H; cbn [omapM]; [reflexivity|].
    rewrite (H a (or_introl eq_refl)), IH by (intros e He; apply H; right; exact He). reflexivity.
  Qed.
End Tie.

Section Whole.
  Context {T : Type} (N : NumOps T).
  Notation E := (expr T).

  Definition gen_nfr (norm pass : E -> option E) (e : E) : option (val (T:=T)) :=
    match e with
    | Const _ => runn N norm pass gen_sym_Constant_normalize_fully_reduced e
    | Var _ => runn N norm pass gen_sym_Variable_normalize_fully_reduced e
    | Add _ => runn N norm pass gen_sym_Add_normalize_fully_reduced e
    | Mul _ => runn N norm pass gen_sym_Multiply_normalize_fully_reduced e
    | Minus _ _ | Divide _ _ | Power _ _ => runn N norm pass gen_sym_BinaryExpression_normalize_fully_reduced e
    | _ => runn N norm pass gen_sym_UnaryExpression_normalize_fully_reduced e
    end.

  Theorem nfr_tied : forall fuel d e,
    gen_nfr (fun t => nfr N fuel d (fully_reduce N fuel t)) (nfr N fuel d) e = ove (nfr N fuel (S d) e).
  Proof.
    intros fuel d e.
    destruct e; unfold gen_nfr.
    1: apply nfr_Constant_tied.
    1: apply nfr_Variable_tied.
    1: { rewrite nfr_Add_tied. cbn [nfr]. destruct (partition_by is_Neg l). reflexivity. }
    1: { rewrite nfr_Multiply_tied. cbn [nfr]. destruct (partition_by is_Recip l). reflexivity. }
    1-3: rewrite (nfr_Binary_tied N _ _ _ e1 e2) by reflexivity; cbn [nfr];
         destruct (nfr N fuel d e1), (nfr N fuel d e2); reflexivity.
    all: rewrite (nfr_Unary_tied N _ _ _ e) by reflexivity; cbn [nfr];
         destruct (nfr N fuel d e); reflexivity.
  Qed.
End Whole.
