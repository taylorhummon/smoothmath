(** [reset_s], [eval_s] and [take_step_f] of Stateful.v treat the classes of a kind alike and walk
    the children with local fixpoints.  Here each of those loops has a name and each function one
    equation over the children view.  proofs/History.v reasons through these equations;
    TieCacheBody.v and TieStep.v show that the translated methods compute their right-hand sides. *)
From Coq Require Import ZArith List Bool.
From SM Require Import Num Syntax Outcome Eval Rules Driver Stateful.
From SM.proofs Require Import SyntaxFacts.
Import ListNotations.

Section Cache.
  Context {T : Type} (N : NumOps T).
  Notation SE := (@sexpr T).
  Notation ST := (@store T).

  Lemma sexpr_ind_ch (P : SE -> Prop) : (forall e, Forall P (schildren e) -> P e) -> forall e, P e.
  Proof.
    intros H. fix IH 1. intros e. apply H.
    destruct e; cbn [schildren]; repeat constructor; try apply IH.
    all: induction l as [|x r IHr]; constructor; [apply IH | exact IHr].
  Qed.

  Lemma snodes_unfold (e : SE) : snodes e = e :: flat_map snodes (schildren e).
  Proof.
    destruct e; simpl; rewrite ?app_nil_r; reflexivity.
  Qed.

  Lemma sget_sclear (s : ST) (i j : oid) :
    sget (sclear s j) i = if Pos.eqb i j then None else sget s i.
  Proof.
    induction s as [|[k v] r IH]; simpl.
    - destruct (Pos.eqb i j); reflexivity.
    - destruct (Pos.eqb j k) eqn:Ejk.
      + rewrite IH. apply Pos.eqb_eq in Ejk. subst k.
        destruct (Pos.eqb i j); reflexivity.
      + simpl. destruct (Pos.eqb i k) eqn:Eik.
        * apply Pos.eqb_eq in Eik. subst k. rewrite Pos.eqb_sym, Ejk. reflexivity.
        * exact IH.
  Qed.

  Lemma sget_sset (s : ST) (i j : oid) (v : T) :
    sget (sset s i v) j = if Pos.eqb j i then Some v else sget s j.
  Proof. reflexivity. Qed.

  (* _reset_evaluation_cache *)
  Lemma reset_s_unfold (s : ST) (e : SE) :
    reset_s s e =
    fold_left reset_s (schildren e) (match oid_of e with Some i => sclear s i | None => s end).
  Proof.
    assert (HL : forall l s0,
      (fix reset_list (s : ST) (l : list SE) {struct l} : ST :=
         match l with [] => s | x :: r => reset_list (reset_s s x) r end) s0 l
      = fold_left reset_s l s0).
    { induction l as [|x r IH]; intros s0; simpl; auto. }
    destruct e; simpl; try reflexivity; apply HL.
  Qed.

  (* how [eval_s] threads the store: an exception leaves it as it is at that moment *)
  Definition sbind {A B} (m : ST * outcome A) (f : ST -> A -> ST * outcome B) : ST * outcome B :=
    match m with
    | (s, Val a) => f s a
    | (s, DomErr) => (s, DomErr)
    | (s, CoordMissing) => (s, CoordMissing)
    | (s, PyErr k) => (s, PyErr k)
    end.

  Definition eval_list_s (p : point T) : ST -> list SE -> ST * outcome (list T) :=
    fix eval_list (s : ST) (l : list SE) : ST * outcome (list T) :=
      match l with
      | [] => (s, Val [])
      | x :: r => sbind (eval_s N s p x) (fun s1 v =>
                  sbind (eval_list s1 r) (fun s2 vs => (s2, Val (v :: vs))))
      end.

  (* _evaluate; a leaf has no memo field *)
  Lemma eval_s_unfold (s : ST) (p : point T) (e : SE) :
    eval_s N s p e =
    match oid_of e with
    | None => (s, eval N p (erase e))
    | Some i =>
        match sget s i with
        | Some v => (s, Val v)
        | None => sbind (eval_list_s p s (schildren e)) (fun s1 vs =>
                  sbind (s1, node_value N e vs) (fun s2 v => (sset s2 i v, Val v)))
        end
    end.
  Proof. destruct e; reflexivity. Qed.

  Lemma eval_erase_unfold (p : point T) (e : SE) (i : oid) :
    oid_of e = Some i ->
    eval N p (erase e) =
    bind (sequence (map (fun x => eval N p (erase x)) (schildren e))) (node_value N e).
  Proof.
    intro Hi. destruct e; simpl in Hi; try discriminate; simpl.
    1,2: rewrite map_map; reflexivity.
    all: destruct (eval N p (erase _)); simpl; try reflexivity;
      destruct (eval N p (erase _)); reflexivity.
  Qed.
End Cache.

Section Flags.
  Context {T : Type} (N : NumOps T).
  Notation E := (expr T).
  Notation FL := (@flags T).
  Variable E_eqb : E -> E -> bool.

  Lemma match_Const {A} (e : E) (x y : A) :
    match e with Const _ => x | _ => y end = if is_Const e then x else y.
  Proof. destruct e; reflexivity. Qed.

  Definition step_list_f (f1 : FL) : list E -> option (FL * list E) :=
    fix step_list (l : list E) : option (FL * list E) :=
      match l with
      | [] => None
      | x :: r =>
          if reduced f1 x then
            match step_list r with
            | Some (f2, r') => Some (f2, x :: r')
            | None => None
            end
          else let (f2, x') := take_step_f N E_eqb f1 x in Some (f2, x' :: r)
      end.

  (* _take_reduction_step, for all fifteen classes *)
  Lemma take_step_f_unfold (f : FL) (e : E) :
    take_step_f N E_eqb f e =
    if reduced f e then (f, e)
    else
      match consolidate_f N E_eqb f e with
      | (f1, Some c) => (f1, c)
      | (f1, None) =>
          match step_list_f f1 (echildren e) with
          | Some (f2, l') => (f2, erebuild e l')
          | None =>
              match apply_reducers N e with
              | Some (_, e') => (f1, e')
              | None => (mark_reduced E_eqb f1 e, e)
              end
          end
      end.
  Proof.
    destruct e as [c|x|l|l|a b|a b|a b|a|a|a|a|a n|a n|a c|a c];
      cbn [take_step_f echildren erebuild step_list_f]; try reflexivity.
    all: destruct (reduced f _); [reflexivity|].
    all: destruct (consolidate_f N E_eqb f _) as [f1 [c'|]]; [reflexivity|].
    all: destruct (reduced f1 a); [|destruct (take_step_f N E_eqb f1 a); reflexivity].
    1-3: destruct (reduced f1 b); [|destruct (take_step_f N E_eqb f1 b)].
    all: reflexivity.
  Qed.
End Flags.
