(** [_numeric_partial] and [_compute_numeric_partials] of each class that defines them
    (GeneratedOrch.v, run by OrchAst) compute one unfolding of [Forward.fwd] and [Reverse.rev], for
    every number interface. *)
From Coq Require Import ZArith List Bool String.
From SM Require Import Num Syntax Outcome MathFun Eval Forward Reverse OrchAst GeneratedOrch TieTactics.
From SM.proofs Require Import SyntaxFacts.
Import ListNotations.
Open Scope string_scope.
Open Scope list_scope.

Section Tie.
  Context {T : Type} (N : NumOps T).
  Notation E := (expr T).
  Variable v : name.
  Variable p : point T.

  Local Arguments oattr {T} w f : simpl nomatch.
  Local Arguments overify {T} N self args : simpl nomatch.
  Local Arguments oformula {T} N p self which m : simpl nomatch.

  (* [cbn] and not [TieTactics.ev]: what depends on the class of [self] stays folded on a symbolic
     node through the [simpl nomatch] above, which [cbn] heeds and [lazy] does not. *)
  Ltac orun := cbn -[mf_add mf_multiply mf_minus mf_negation mf_divide eval fwd rev unary_formula unary_verify
                    divide_formula_left divide_formula_right power_formula_left power_formula_right
                    verify_divide verify_power acc_add var_free Z.of_nat inner_of].

  Lemma fwd_Constant_tied : forall c, ocall_fwd N v p gen_orch_Constant_fwd (Const c) = fwd N v p (Const c).
  Proof. reflexivity. Qed.

  Lemma fwd_Variable_tied : forall x, ocall_fwd N v p gen_orch_Variable_fwd (Var x) = fwd N v p (Var x).
  Proof. intros x. unfold ocall_fwd. cbn. destruct (name_eqb x v); reflexivity. Qed.

  Lemma fwd_Minus_tied : forall a b, ocall_fwd N v p gen_orch_Minus_fwd (Minus a b) = fwd N v p (Minus a b).
  Proof.
    intros a b. unfold ocall_fwd. cbn [fwd]. orun.
    next da orun. next db orun. reflexivity.
  Qed.

  Lemma fwd_Divide_tied : forall a b, ocall_fwd N v p gen_orch_Divide_fwd (Divide a b) = fwd N v p (Divide a b).
  Proof.
    intros a b. unfold ocall_fwd. cbn [fwd]. orun.
    next lv orun. next rv orun. next u orun.
    next da orun. next db orun.
    next x orun. next y orun. reflexivity.
  Qed.

  Lemma if_arg : forall {A B} (c : bool) (f : A -> B) (x y : A), (if c then f x else f y) = f (if c then x else y).
  Proof. intros. destruct c; reflexivity. Qed.

  (* The shortcut [not self._left._variable_names and self._left._evaluate(point) == 1]: both sides
     decide it by the same boolean once the left value is known. *)
  Lemma fwd_Power_tied : forall a b, ocall_fwd N v p gen_orch_Power_fwd (Power a b) = fwd N v p (Power a b).
  Proof.
    intros a b. unfold ocall_fwd. cbn [fwd]. unfold power_shortcut, n0, n1. orun.
    next sv orun.
    case (eval N p a); [intros lv; orun | case (var_free a); reflexivity ..].
    rewrite (if_arg (var_free a) (fun sc => Val (OVB sc))), (if_arg (var_free a) (fun sc => Val sc)).
    case (if var_free a then neqb N lv (nofZ N 1) else false); [reflexivity | orun].
    next rv orun. next u orun. next da orun. next db orun.
    next x orun. next y orun. reflexivity.
  Qed.

  (* what the body shared by the eight unary classes (UnaryExpression) reads of [self] *)
  Lemma unary_node : forall e, is_unary e = true ->
    oattr (OVE e) "_inner" = Val (OVE (inner_of e)) /\
    (forall iv, overify N e [iv] = unary_verify N e iv) /\
    (forall m, oformula N p e "" m = unary_formula N p e m).
  Proof. intros e U. destruct e; try discriminate U; repeat split. Qed.

  Lemma fwd_Unary_tied : forall e, is_unary e = true ->
    ocall_fwd N v p gen_orch_UnaryExpression_fwd e = fwd N v p e.
  Proof.
    intros e U. destruct (unary_node e U) as (Ha & Hv & Hf). rewrite (fwd_unary N v p e U).
    unfold ocall_fwd. orun. rewrite Ha. orun.
    next iv orun. rewrite Hv. next u orun. rewrite Ha. orun. next d orun. rewrite Hf. next y orun. reflexivity.
  Qed.

  Lemma rev_Constant_tied : forall c m acc,
    ocall_rev N v p gen_orch_Constant_rev (Const c) m acc = rev N p (Const c) m acc.
  Proof. reflexivity. Qed.

  Lemma rev_Variable_tied : forall x m acc,
    ocall_rev N v p gen_orch_Variable_rev (Var x) m acc = rev N p (Var x) m acc.
  Proof. reflexivity. Qed.

  Lemma rev_Minus_tied : forall a b m acc,
    ocall_rev N v p gen_orch_Minus_rev (Minus a b) m acc = rev N p (Minus a b) m acc.
  Proof.
    intros. unfold ocall_rev. cbn [rev]. orun.
    next acc1 orun. next acc2 orun. reflexivity.
  Qed.

  Lemma rev_Divide_tied : forall a b m acc,
    ocall_rev N v p gen_orch_Divide_rev (Divide a b) m acc = rev N p (Divide a b) m acc.
  Proof.
    intros. unfold ocall_rev. cbn [rev]. orun.
    next lv orun. next rv orun. next u orun.
    next ml orun. next mr orun.
    next acc1 orun. next acc2 orun. reflexivity.
  Qed.

  Lemma rev_Power_tied : forall a b m acc,
    ocall_rev N v p gen_orch_Power_rev (Power a b) m acc = rev N p (Power a b) m acc.
  Proof.
    intros a b m acc. unfold ocall_rev. cbn [rev]. unfold power_shortcut, n1. orun.
    next sv orun.
    case (eval N p a); [intros lv; orun | case (var_free a); reflexivity ..].
    rewrite (if_arg (var_free a) (fun sc => Val (OVB sc))), (if_arg (var_free a) (fun sc => Val sc)).
    case (if var_free a then neqb N lv (nofZ N 1) else false); [reflexivity | orun].
    next rv orun. next u orun.
    next ml orun. next mr orun.
    next acc1 orun. next acc2 orun. reflexivity.
  Qed.

  Lemma rev_Unary_tied : forall e m acc, is_unary e = true ->
    ocall_rev N v p gen_orch_UnaryExpression_rev e m acc = rev N p e m acc.
  Proof.
    intros e m acc U. destruct (unary_node e U) as (Ha & Hv & Hf). rewrite (rev_unary N p e m acc U).
    unfold ocall_rev. orun. rewrite Ha. orun.
    next iv orun. rewrite Hv. next u orun. rewrite Hf. next m' orun. rewrite Ha. orun. next acc1 orun. reflexivity.
  Qed.

  Lemma ocomp_seq : forall (f : oval (T:=T) -> outcome oval) (g : E -> outcome T) (l : list E),
    (forall e, f (OVE e) = (x <- g e ;; Val (OVN x))) ->
    ocomp_loop f (map OVE l) = (xs <- sequence (map g l) ;; Val (map OVN xs)).
  Proof.
    intros f g l Hf. induction l as [|a l IH]; cbn [map ocomp_loop sequence bind]; [reflexivity|].
    rewrite Hf, IH. destruct (g a); cbn [bind]; try reflexivity.
    destruct (sequence (map g l)); reflexivity.
  Qed.

  Lemma onums_OVN : forall l : list T, onums N (map OVN l) = Val l.
  Proof. induction l as [|a l IH]; cbn [map onums bind onum]; [reflexivity|]. rewrite IH. reflexivity. Qed.

  Lemma fwd_Add_tied : forall l, ocall_fwd N v p gen_orch_Add_fwd (Add l) = fwd N v p (Add l).
  Proof.
    intros l. unfold ocall_fwd. orun. cbn [fwd].
    rewrite (ocomp_seq _ (fwd N v p)) by (intros; reflexivity).
    next ds orun.
    rewrite app_nil_r, onums_OVN. reflexivity.
  Qed.

  Lemma flow_eta : forall (X : outcome (oflow (T:=T))),
    (f <- X ;; match f with inl st' => Val (inl st') | inr w => Val (inr w) end) = X.
  Proof. intros X. destruct X as [[s|w]| | |k]; reflexivity. Qed.

  (* [Inv]: what the body reads of the environment *)
  Lemma ofor_spec : forall (body : ostate (T:=T) -> nat -> oval -> outcome oflow) (Inv : oenv (T:=T) -> Prop)
                           (mult : nat -> T),
    (forall r acc n e, Inv r ->
       exists r', Inv r' /\
         body (r, acc) n (OVE e) = (acc' <- rev N p e (mult n) acc ;; Val (inl (r', acc')))) ->
    forall l n r acc, Inv r ->
      (fl <- ofor_loop body n (r, acc) (map OVE l) ;; match fl with inl st => Val (snd st) | inr _ => stuck end)
      = rev_each N p mult n l acc.
  Proof.
    intros body Inv mult Hb l. induction l as [|a l IH]; intros n r acc Hr; cbn [map ofor_loop rev_each].
    - reflexivity.
    - destruct (Hb r acc n a Hr) as (r' & Hr' & Heq). rewrite Heq.
      destruct (rev N p a (mult n) acc) as [acc'| | |k]; cbn [bind]; try reflexivity.
      apply IH. exact Hr'.
  Qed.

  Lemma rev_Add_tied : forall l m acc,
    ocall_rev N v p gen_orch_Add_rev (Add l) m acc = rev N p (Add l) m acc.
  Proof.
    intros l m acc. unfold ocall_rev. orun. rewrite rev_Add, flow_eta.
    apply ofor_spec with (Inv := fun r1 => olook "multiplier" r1 = Some (OVN m)) (mult := fun _ => m).
    - intros r acc0 n e Hr. exists (("inner", OVE e) :: r). split; [exact Hr|].
      cbn [fst snd]. rewrite Hr. orun. rewrite flow_eta. reflexivity.
    - reflexivity.
  Qed.

  Lemma owithout_OVN : forall (i : nat) (vs : list T),
    owithout i (map (@OVN T) vs) = map OVN (remove_nth i vs).
  Proof.
    intros i vs. revert i. induction vs as [|a vs IH]; intros i; [destruct i; reflexivity|].
    destruct i; cbn [map owithout remove_nth]; [reflexivity|]. rewrite IH. reflexivity.
  Qed.

  Lemma oenum_seq : forall (f : nat -> oval (T:=T) -> outcome oval) (g : E -> outcome T) (h : nat -> T -> T)
                           (l : list E) (n : nat),
    (forall i e, f i (OVE e) = (x <- g e ;; Val (OVN (h i x)))) ->
    oenum_loop f n (map OVE l) = (ds <- sequence (map g l) ;; Val (map OVN (mapi_from n h ds))).
  Proof.
    intros f g h l. induction l as [|a l IH]; intros n Hf; cbn [map oenum_loop sequence bind mapi_from]; [reflexivity|].
    rewrite Hf, IH by exact Hf. destruct (g a); cbn [bind]; try reflexivity.
    destruct (sequence (map g l)); reflexivity.
  Qed.

  (* util.list_without_entry_at(inner_values, i) at the index an [enumerate] supplies *)
  Lemma owithout_enum : forall (n : nat) (vs : list T),
    (if (0 <=? Z.of_nat n)%Z then Val (OVL (owithout (Z.to_nat (Z.of_nat n)) (map (@OVN T) vs))) else stuck)
    = Val (OVL (map OVN (remove_nth n vs))).
  Proof.
    intros n vs. rewrite (proj2 (Z.leb_le _ _) (Nat2Z.is_nonneg n)), Nat2Z.id, owithout_OVN. reflexivity.
  Qed.

  Lemma fwd_Mul_tied : forall l, ocall_fwd N v p gen_orch_Multiply_fwd (Mul l) = fwd N v p (Mul l).
  Proof.
    intros l. unfold ocall_fwd. orun. cbn [fwd]. unfold eval_list.
    rewrite (ocomp_seq _ (eval N p)) by (intros; reflexivity).
    next vs orun.
    rewrite (oenum_seq _ (fwd N v p) (fun i d => mf_multiply N (d :: remove_nth i vs))).
    2: { intros i e. next d orun.
         rewrite owithout_enum. orun. rewrite app_nil_r, onums_OVN. reflexivity. }
    next ds orun.
    rewrite app_nil_r, onums_OVN. reflexivity.
  Qed.

  Lemma rev_Mul_tied : forall l m acc,
    ocall_rev N v p gen_orch_Multiply_rev (Mul l) m acc = rev N p (Mul l) m acc.
  Proof.
    intros l m acc. unfold ocall_rev. orun. rewrite rev_Mul. unfold eval_list.
    rewrite (ocomp_seq _ (eval N p)) by (intros; reflexivity).
    next vs orun.
    rewrite flow_eta.
    apply ofor_spec with (Inv := fun r1 => olook "multiplier" r1 = Some (OVN m) /\
                                        olook "inner_values" r1 = Some (OVL (map OVN vs)))
                         (mult := fun i => mf_multiply N (m :: remove_nth i vs)).
    - intros r acc0 n e [Hm Hv].
      exists (("next_multiplier", OVN (mf_multiply N (m :: remove_nth n vs))) :: ("inner", OVE e) ::
              ("i", OVZ (Z.of_nat n)) :: r).
      split; [split; assumption|].
      cbn [fst snd]. rewrite Hm, Hv. orun.
      rewrite owithout_enum. orun. rewrite app_nil_r, onums_OVN. orun.
      rewrite flow_eta. reflexivity.
    - split; reflexivity.
  Qed.

  Definition gen_fwd (e : E) : outcome T :=
    match e with
    | Const _ => ocall_fwd N v p gen_orch_Constant_fwd e
    | Var _ => ocall_fwd N v p gen_orch_Variable_fwd e
    | Add _ => ocall_fwd N v p gen_orch_Add_fwd e
    | Mul _ => ocall_fwd N v p gen_orch_Multiply_fwd e
    | Minus _ _ => ocall_fwd N v p gen_orch_Minus_fwd e
    | Divide _ _ => ocall_fwd N v p gen_orch_Divide_fwd e
    | Power _ _ => ocall_fwd N v p gen_orch_Power_fwd e
    | _ => ocall_fwd N v p gen_orch_UnaryExpression_fwd e
    end.

  Definition gen_rev (e : E) (m : T) (acc : accum) : outcome accum :=
    match e with
    | Const _ => ocall_rev N v p gen_orch_Constant_rev e m acc
    | Var _ => ocall_rev N v p gen_orch_Variable_rev e m acc
    | Add _ => ocall_rev N v p gen_orch_Add_rev e m acc
    | Mul _ => ocall_rev N v p gen_orch_Multiply_rev e m acc
    | Minus _ _ => ocall_rev N v p gen_orch_Minus_rev e m acc
    | Divide _ _ => ocall_rev N v p gen_orch_Divide_rev e m acc
    | Power _ _ => ocall_rev N v p gen_orch_Power_rev e m acc
    | _ => ocall_rev N v p gen_orch_UnaryExpression_rev e m acc
    end.

  Theorem fwd_tied : forall e, gen_fwd e = fwd N v p e.
  Proof.
    intros e. destruct e; unfold gen_fwd.
    1: apply fwd_Constant_tied.
    1: apply fwd_Variable_tied.
    1: apply fwd_Add_tied.
    1: apply fwd_Mul_tied.
    1: apply fwd_Minus_tied.
    1: apply fwd_Divide_tied.
    1: apply fwd_Power_tied.
    all: apply fwd_Unary_tied; reflexivity.
  Qed.

  Theorem rev_tied : forall e m acc, gen_rev e m acc = rev N p e m acc.
  Proof.
    intros e m acc. destruct e; unfold gen_rev.
    1: apply rev_Constant_tied.
    1: apply rev_Variable_tied.
    1: apply rev_Add_tied.
    1: apply rev_Mul_tied.
    1: apply rev_Minus_tied.
    1: apply rev_Divide_tied.
    1: apply rev_Power_tied.
    all: apply rev_Unary_tied; reflexivity.
  Qed.
End Tie.
