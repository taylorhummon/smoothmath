(** The methods and helpers of Partial, Derivative, Differential and LocatedDifferential
    (GeneratedRoute.v, run by RouteAst) compute the object model of RouteAst.v, for any [norm]
    standing for the simplifier and any [enum] for the enumeration of a tree's variable names. *)
From Coq Require Import ZArith List String.
From SM Require Import Num Syntax Outcome Eval Forward Reverse Synth Rules Driver Normalize Routes
                       RouteAst GeneratedRoute TieTactics.
From SM.proofs Require Import SyntaxFacts.
Import ListNotations.
Open Scope string_scope.
Open Scope list_scope.

Section Tie.
  Context {T : Type} (N : NumOps T).
  Notation E := (expr T).
  Variable norm : E -> E.
  Variable enum : E -> list name.
  Notation rval := (rval (T:=T)).

  (* [f] run on the receiver [self] (RVNone: a module function): the value returned, the fields afterwards *)
  Definition meth (f : rfun) (self : rval) (fs : rfields (T:=T)) (args : list rval) := rmethod N norm enum f self fs args.

  Definition fields_partial (o : partial_obj (T:=T)) : rfields :=
    [("_original_expression", RVE (pe o)); ("_variable_name", RVName (pv o)); ("_synthetic_partial", oe (psp o))].

  (* va.get_variable_name accepts a name or a Variable *)
  Lemma get_name_inv : forall (var : rval) v, get_name var = Val v -> var = RVName v \/ var = RVE (Var v).
  Proof.
    intros var v Hv. destruct var as [[]| | | | | | | | | | | | | | |]; try discriminate Hv;
      injection Hv as ->; auto.
  Qed.

  Lemma retrieve_tied : forall e v,
    meth gen_route_fn_retrieve_synthetic_partial RVNone [] [RVE e; RVName v]
    = Val (RVE (retrieve_synthetic_partial N norm e v), []).
  Proof. reflexivity. Qed.

  (* the _private argument: None, or a dict holding the key *)
  Definition privE (o : option E) : rval := match o with Some s => RVPriv "synthetic_partial" (RVE s) | None => RVNone end.

  Lemma initial_synthetic_partial_tied : forall e v early (priv : option E),
    meth gen_route_fn_initial_synthetic_partial RVNone [] [RVE e; RVName v; RVB early; privE priv]
    = Val (oe (initial_synthetic_partial N norm e v early priv), []).
  Proof. intros e v early priv. destruct priv; destruct early; reflexivity. Qed.

  Lemma Partial_init_tied : forall self e (var : rval) v early (priv : option E),
    get_name var = Val v ->
    meth gen_route_Partial_init self [] [RVE e; var; RVB early; privE priv]
    = Val (RVNone, fields_partial (mk_partial N norm e v early priv)).
  Proof.
    intros self e var v early priv Hv.
    destruct (get_name_inv _ _ Hv) as [-> | ->]; destruct priv; destruct early; reflexivity.
  Qed.

  Lemma Partial_at_tied : forall self (o : partial_obj) p,
    meth gen_route_Partial_at self (fields_partial o) [RVPoint p]
    = (x <- partial_at N o p ;; Val (RVN x, fields_partial o)).
  Proof.
    intros self [e v sp] p. unfold partial_at. cbn [pe pv psp]. destruct sp as [s|]; ev.
    - destruct (eval N p e); try reflexivity. ev. destruct (eval N p s); reflexivity.
    - destruct (fwd N v p e); reflexivity.
  Qed.

  Lemma Partial_as_expression_tied : forall self (o : partial_obj),
    meth gen_route_Partial_as_expression self (fields_partial o) []
    = Val (RVE (fst (partial_as_expression N norm o)), fields_partial (snd (partial_as_expression N norm o))).
  Proof. intros self [e v sp]. destruct sp; reflexivity. Qed.

  Definition fields_deriv (o : deriv_obj (T:=T)) : rfields :=
    [("_original_expression", RVE (dve o)); ("_variable_name", RVName (dvv o)); ("_partial", RVPartial (dvp o))].

  Lemma Derivative_init_tied : forall self e early,
    meth gen_route_Derivative_init self [] [RVE e; RVB early]
    = match mk_derivative N norm e early with
      | Some o => Val (RVNone, fields_deriv o)
      | None => raises
      end.
  Proof.
    intros self e early. unfold mk_derivative. ev. destruct (the_single_variable_name e); reflexivity.
  Qed.

  Lemma Derivative_at_point_tied : forall self (o : deriv_obj) p,
    meth gen_route_Derivative_at self (fields_deriv o) [RVPoint p]
    = (x <- derivative_at_point N o p ;; Val (RVN x, fields_deriv o)).
  Proof.
    intros self [e v po] p. unfold derivative_at_point. ev. destruct (partial_at N po p); reflexivity.
  Qed.

  Lemma Derivative_at_number_tied : forall self (o : deriv_obj) x,
    meth gen_route_Derivative_at self (fields_deriv o) [RVN x]
    = (y <- derivative_at_number N o x ;; Val (RVN y, fields_deriv o)).
  Proof.
    intros self [e v po] x. unfold derivative_at_number. ev. destruct (partial_at N po [(v, x)]); reflexivity.
  Qed.

  Lemma Derivative_as_expression_tied : forall self (o : deriv_obj),
    meth gen_route_Derivative_as_expression self (fields_deriv o) []
    = Val (RVE (fst (partial_as_expression N norm (dvp o))),
           fields_deriv (mkDeriv (dve o) (dvv o) (snd (partial_as_expression N norm (dvp o))))).
  Proof.
    intros self [e v po]. ev. destruct (partial_as_expression N norm po). reflexivity.
  Qed.

  Definition fields_diff (o : diff_obj (T:=T)) : rfields :=
    [("_original_expression", RVE (de o));
     ("_synthetic_partials", match dsps o with Some d => dictE d | None => RVNone end)].

  Lemma rmap_pure : forall (f : name -> rval -> rfields (T:=T) -> rres rval) (g : E -> rval)
                            (d : list (name * E)) (fs : rfields),
    (forall x s fs', f x (RVE s) fs' = Val (g s, fs')) ->
    rmap_loop f (map (fun xs : name * E => (fst xs, RVE (snd xs))) d) fs
    = Val (map (fun xs : name * E => (fst xs, g (snd xs))) d, fs).
  Proof.
    intros f g d fs Hf. induction d as [|[x s] d IH]; [reflexivity|].
    cbn [map rmap_loop fst snd]. rewrite Hf. cbn [bind]. rewrite IH. reflexivity.
  Qed.

  Lemma initial_synthetic_partials_tied : forall e early,
    meth gen_route_fn_initial_synthetic_partials RVNone [] [RVE e; RVB early]
    = Val (match initial_synthetic_partials N norm enum e early with Some d => dictE d | None => RVNone end, []).
  Proof.
    intros e early. destruct early; [|reflexivity].
    ev. unfold dictE at 1.
    rewrite (rmap_pure _ (fun s => RVE (norm s))) by (intros; reflexivity).
    unfold initial_synthetic_partials, dictE. rewrite map_map. reflexivity.
  Qed.

  Lemma Differential_init_tied : forall self e early,
    meth gen_route_Differential_init self [] [RVE e; RVB early]
    = Val (RVNone, fields_diff (mk_differential N norm enum e early)).
  Proof. intros self e early. destruct early; reflexivity. Qed.

  Lemma dict_find_map : forall {A} (inj : A -> rval) (v : name) (d : list (name * A)),
    dict_find v (map (fun xs : name * A => (fst xs, inj (snd xs))) d) = option_map inj (lookup v d).
  Proof.
    intros A inj v d. induction d as [|[x s] d IH]; [reflexivity|]. cbn [map fst snd lookup dict_find].
    destruct (name_eqb v x); [reflexivity | exact IH].
  Qed.

  Lemma Differential_component_tied : forall self (o : diff_obj) (var : rval) v,
    get_name var = Val v ->
    meth gen_route_Differential_component self (fields_diff o) [var]
    = Val (RVPartial (diff_component N norm o v), fields_diff o).
  Proof.
    intros self [e sps] var v Hv. unfold diff_component, fields_diff. cbn [de dsps].
    destruct (get_name_inv _ _ Hv) as [-> | ->]; (destruct sps as [d|]; [|reflexivity]);
      rewrite slookup_lookup; unfold dictE; ev; rewrite (dict_find_map RVE); destruct (lookup v d); reflexivity.
  Qed.

  Definition fields_loc (o : located_obj (T:=T)) : rfields :=
    [("_original_expression", RVE (le o)); ("_point", RVPoint (lp o)); ("_numeric_partials", dictN (lnps o))].

  Definition privN (o : option (list (name * T))) : rval :=
    match o with Some d => RVPriv "numeric_partials" (dictN d) | None => RVNone end.

  Lemma to_dictN_dictN : forall d : list (name * T),
    to_dictN (map (fun xs : name * T => (fst xs, @RVN T (snd xs))) d) = Some d.
  Proof. induction d as [|[x w] d IH]; [reflexivity|]. cbn [map to_dictN fst snd]. rewrite IH. reflexivity. Qed.

  Lemma initial_numeric_partials_tied : forall e p (priv : option (list (name * T))),
    meth gen_route_fn_initial_numeric_partials RVNone [] [RVE e; RVPoint p; privN priv]
    = (d <- initial_numeric_partials N enum e p priv ;; Val (dictN d, [])).
  Proof.
    intros e p priv. destruct priv as [d|]; [reflexivity|]. ev.
    destruct (numeric_partials N p e (enum e)); reflexivity.
  Qed.

  Lemma Located_init_tied : forall self e p (priv : option (list (name * T))),
    meth gen_route_LocatedDifferential_init self [] [RVE e; RVPoint p; privN priv]
    = (o <- mk_located N enum e p priv ;; Val (RVNone, fields_loc o)).
  Proof.
    intros self e p priv. unfold mk_located. destruct priv as [d|]; ev.
    - unfold dictN at 1. rewrite to_dictN_dictN. reflexivity.
    - destruct (numeric_partials N p e (enum e)); reflexivity.
  Qed.

  Lemma Located_component_tied : forall self (o : located_obj) (var : rval) v,
    get_name var = Val v ->
    meth gen_route_LocatedDifferential_component self (fields_loc o) [var]
    = Val (match lookup v (lnps o) with Some d => RVN d | None => RVZero end, fields_loc o).
  Proof.
    intros self [e p nps] var v Hv. unfold fields_loc, dictN. cbn [lnps].
    destruct (get_name_inv _ _ Hv) as [-> | ->]; ev; rewrite (dict_find_map RVN); destruct (lookup v nps); reflexivity.
  Qed.

  Lemma rmap_eval : forall (f : name -> rval -> rfields (T:=T) -> rres rval) (p : point T)
                            (d : list (name * E)) (fs : rfields),
    (forall x s fs', f x (RVE s) fs' = (w <- eval N p s ;; Val (RVN w, fs'))) ->
    rmap_loop f (map (fun xs : name * E => (fst xs, RVE (snd xs))) d) fs
    = (nps <- eval_values N p d ;; Val (map (fun xs : name * T => (fst xs, RVN (snd xs))) nps, fs)).
  Proof.
    intros f p d fs Hf. induction d as [|[x s] d IH]; [reflexivity|].
    cbn [map rmap_loop fst snd eval_values]. rewrite Hf.
    destruct (eval N p s); cbn [bind]; try reflexivity.
    rewrite IH. destruct (eval_values N p d); reflexivity.
  Qed.

  Lemma Differential_at_tied : forall self (o : diff_obj) p,
    meth gen_route_Differential_at self (fields_diff o) [RVPoint p]
    = (l <- diff_at N enum o p ;; Val (RVLocated l, fields_diff o)).
  Proof.
    intros self [e sps] p. unfold diff_at, fields_diff. cbn [de dsps].
    destruct sps as [d|]; unfold dictE; ev; (destruct (eval N p e); [ev | reflexivity..]).
    - rewrite (rmap_eval _ p) by (intros x s fs'; ev; destruct (eval N p s); reflexivity).
      destruct (eval_values N p d) as [nps| | |k]; [ev | reflexivity..].
      rewrite to_dictN_dictN. reflexivity.
    - unfold mk_located. destruct (numeric_partials N p e (enum e)); reflexivity.
  Qed.

  Lemma Differential_component_at_tied : forall (o : diff_obj) (var : rval) v p,
    get_name var = Val v ->
    meth gen_route_Differential_component_at (RVDiff o) (fields_diff o) [var; RVPoint p]
    = (x <- diff_component_at N norm o v p ;; Val (RVN x, fields_diff o)).
  Proof.
    intros o var v p Hv. unfold diff_component_at.
    destruct (get_name_inv _ _ Hv) as [-> | ->]; ev; destruct (partial_at N (diff_component N norm o v) p); reflexivity.
  Qed.

  Lemma single_name_tied : forall e,
    meth gen_route_fn_get_the_single_variable_name RVNone [] [RVE e; RVStr ""]
    = match the_single_variable_name e with
      | Some v => Val (RVName v, [])
      | None => raises
      end.
  Proof.
    intros e. unfold the_single_variable_name. ev. destruct (var_names e) as [|x [|y l]]; reflexivity.
  Qed.

  Lemma Expression_at_point_tied : forall e p,
    meth gen_route_Expression_at (RVE e) [] [RVPoint p] = (x <- eval N p e ;; Val (RVN x, [])).
  Proof. intros e p. ev. destruct (eval N p e); reflexivity. Qed.

  Lemma Expression_at_number_tied : forall e x,
    meth gen_route_Expression_at (RVE e) [] [RVN x]
    = match at_number N e x with
      | Some o => (y <- o ;; Val (RVN y, []))
      | None => raises
      end.
  Proof.
    intros e x. unfold at_number. ev. destruct (the_single_variable_name e) as [v|]; [|reflexivity].
    ev. destruct (eval N [(v, x)] e); reflexivity.
  Qed.

  Lemma point_on_number_line_tied : forall v x,
    meth gen_route_fn_point_on_number_line RVNone [] [RVName v; RVN x] = Val (RVPoint [(v, x)], []).
  Proof. reflexivity. Qed.

  Definition fields_point (p : point T) : rfields := [("_coordinates", dictN p)].

  Lemma Point_coordinate_tied : forall (p : point T) (var : rval) v,
    get_name var = Val v ->
    meth gen_route_Point_coordinate (RVPoint p) (fields_point p) [var]
    = (c <- coordinate p v ;; Val (RVN c, fields_point p)).
  Proof.
    intros p var v Hv. unfold fields_point, coordinate, dictN.
    destruct (get_name_inv _ _ Hv) as [-> | ->]; ev; rewrite (dict_find_map RVN); destruct (lookup v p); reflexivity.
  Qed.

  (** ** the default values of the optional parameters, as the object model assumes them *)
  Lemma defaults_tied :
    gen_route_defaults =
    [("Partial", "__init__", ["False"; "None"]); ("Partial", "at", []); ("Partial", "as_expression", []);
     ("partial", "_initial_synthetic_partial", []); ("partial", "_retrieve_synthetic_partial", []);
     ("Derivative", "__init__", ["False"]); ("Derivative", "at", []); ("Derivative", "as_expression", []);
     ("Differential", "__init__", ["False"]); ("Differential", "component", []); ("Differential", "at", []);
     ("Differential", "component_at", []); ("differential", "_initial_synthetic_partials", []);
     ("LocatedDifferential", "__init__", ["None"]); ("LocatedDifferential", "component", []);
     ("located_differential", "_initial_numeric_partials", [])].
  Proof. reflexivity. Qed.
End Tie.

(** The object model composes to the route functions of Routes.v (those of C05-C07, C14) wherever
    [norm] is what the simplifier returns; it need be so only at the symbolic partials of the
    expression at hand. (No [norm] agrees with [normalize N fuel d] at every expression: the depth
    fuel [d] runs out on a nest of [d] sines.) *)
Section BridgeAt.
  Context {T : Type} (N : NumOps T).
  Notation E := (expr T).
  Variable norm : E -> E.
  Variable enum : E -> list name.
  Variables (fuel d : nat).

  Lemma as_expression_where : forall e v early,
    normalize N fuel d (synth_fwd N v e) = Some (norm (synth_fwd N v e)) ->
    Routes.partial_as_expression N fuel d e v
    = Some (fst (RouteAst.partial_as_expression N norm (mk_partial N norm e v early None))).
  Proof.
    intros e v early H. unfold Routes.partial_as_expression. rewrite H. destruct early; reflexivity.
  Qed.

  Lemma partial_early_where : forall e v p,
    normalize N fuel d (synth_fwd N v e) = Some (norm (synth_fwd N v e)) ->
    partial_at_early N fuel d e v p = Some (partial_at N (mk_partial N norm e v true None) p).
  Proof.
    intros e v p H. unfold partial_at_early, Routes.partial_as_expression. rewrite H. reflexivity.
  Qed.

  Lemma omapM_norm : forall l : list (name * E),
    Forall (fun xs => normalize N fuel d (snd xs) = Some (norm (snd xs))) l ->
    omapM (fun xs : name * E =>
             match normalize N fuel d (snd xs) with Some s => Some (fst xs, s) | None => None end) l
    = Some (map (fun xs : name * E => (fst xs, norm (snd xs))) l).
  Proof.
    induction 1 as [|xs l H _ IH]; [reflexivity|]. cbn [omapM map]. rewrite H, IH. reflexivity.
  Qed.

  Definition norm_on_partials (e : E) : Prop :=
    Forall (fun xs => normalize N fuel d (snd xs) = Some (norm (snd xs))) (synthetic_partials N e (enum e)).

  Lemma early_partials_where : forall e, norm_on_partials e ->
    differential_early_partials N fuel d e (enum e) = dsps (mk_differential N norm enum e true).
  Proof. intros e H. unfold differential_early_partials. rewrite (omapM_norm _ H). reflexivity. Qed.

  Lemma component_at_early_where : forall e v p, norm_on_partials e ->
    differential_early_component_at N fuel d e (enum e) v p
    = Some (diff_component_at N norm (mk_differential N norm enum e true) v p).
  Proof.
    intros e v p H. unfold differential_early_component_at. rewrite (early_partials_where e H).
    unfold diff_component_at, diff_component. cbn [mk_differential dsps de].
    destruct (slookup v _); reflexivity.
  Qed.

  Lemma eval_values_sequence : forall p (sp : list (name * E)),
    eval_values N p sp
    = sequence (map (fun xs : name * E => v <- eval N p (snd xs) ;; Val (fst xs, v)) sp).
  Proof.
    intros p sp. induction sp as [|[x s] sp IH]; [reflexivity|].
    cbn [eval_values map sequence fst snd]. destruct (eval N p s); cbn [bind]; try reflexivity.
    rewrite IH. reflexivity.
  Qed.

  Lemma at_early_where : forall e p, norm_on_partials e ->
    differential_at_early N fuel d e (enum e) p
    = Some (omap (lnps (T:=T)) (diff_at N enum (mk_differential N norm enum e true) p)).
  Proof.
    intros e p H. unfold differential_at_early. rewrite (early_partials_where e H).
    unfold diff_at. cbn [mk_differential dsps de mk_located].
    destruct (eval N p e); cbn [bind omap]; try reflexivity.
    rewrite <- eval_values_sequence. destruct (eval_values N p _); reflexivity.
  Qed.
End BridgeAt.

(** The same under [Hnorm], which no [norm] meets (see above): what these statements say is said by
    the [_where] lemmas. *)
Section Bridge.
  Context {T : Type} (N : NumOps T).
  Notation E := (expr T).
  Variable norm : E -> E.
  Variable enum : E -> list name.
  Variables (fuel d : nat).
  Hypothesis Hnorm : forall x : E, normalize N fuel d x = Some (norm x).

  Lemma bridge_partial_late : forall e v p,
    partial_at N (mk_partial N norm e v false None) p = partial_at_late N e v p.
  Proof. reflexivity. Qed.

  Lemma bridge_as_expression : forall e v early,
    Routes.partial_as_expression N fuel d e v
    = Some (fst (RouteAst.partial_as_expression N norm (mk_partial N norm e v early None))).
  Proof. intros e v early. apply as_expression_where, Hnorm. Qed.

  Lemma bridge_partial_early : forall e v p,
    partial_at_early N fuel d e v p = Some (partial_at N (mk_partial N norm e v true None) p).
  Proof. intros e v p. apply partial_early_where, Hnorm. Qed.

  Lemma bridge_late_after_as_expression : forall e v p,
    partial_at N (snd (RouteAst.partial_as_expression N norm (mk_partial N norm e v false None))) p
    = partial_at N (mk_partial N norm e v true None) p.
  Proof. reflexivity. Qed.

  Lemma bridge_derivative_late : forall e p,
    derivative_at_late N e p
    = match mk_derivative N norm e false with Some o => Some (derivative_at_point N o p) | None => None end.
  Proof.
    intros e p. unfold derivative_at_late, derivative_variable, mk_derivative.
    destruct (the_single_variable_name e); reflexivity.
  Qed.

  Lemma bridge_derivative_number_late : forall e x,
    derivative_at_number_late N e x
    = match mk_derivative N norm e false with Some o => Some (derivative_at_number N o x) | None => None end.
  Proof.
    intros e x. unfold derivative_at_number_late, derivative_variable, mk_derivative.
    destruct (the_single_variable_name e); reflexivity.
  Qed.

  Lemma norm_everywhere : forall e, norm_on_partials N norm enum fuel d e.
  Proof. intros e. apply Forall_forall. intros xs _. apply Hnorm. Qed.

  Lemma bridge_component_at_late : forall e v p,
    diff_component_at N norm (mk_differential N norm enum e false) v p = partial_at_late N e v p.
  Proof. reflexivity. Qed.

  Lemma bridge_component_at_early : forall e v p,
    differential_early_component_at N fuel d e (enum e) v p
    = Some (diff_component_at N norm (mk_differential N norm enum e true) v p).
  Proof. intros e v p. apply component_at_early_where, norm_everywhere. Qed.

  Lemma bridge_at_late : forall e p,
    omap (lnps (T:=T)) (diff_at N enum (mk_differential N norm enum e false) p)
    = differential_at_late N e (enum e) p.
  Proof.
    intros e p. unfold diff_at, differential_at_late. cbn [mk_differential dsps de mk_located].
    destruct (eval N p e); cbn [bind omap]; try reflexivity.
    destruct (numeric_partials N p e (enum e)); reflexivity.
  Qed.

  Lemma bridge_at_early : forall e p,
    differential_at_early N fuel d e (enum e) p
    = Some (omap (lnps (T:=T)) (diff_at N enum (mk_differential N norm enum e true) p)).
  Proof. intros e p. apply at_early_where, norm_everywhere. Qed.

  Lemma bridge_located : forall e p,
    omap (lnps (T:=T)) (mk_located N enum e p None) = located_differential N e (enum e) p.
  Proof.
    intros e p. unfold mk_located, located_differential.
    destruct (numeric_partials N p e (enum e)); reflexivity.
  Qed.

  Lemma bridge_located_component : forall (o : located_obj (T:=T)) v,
    RouteAst.located_component N o v = Reverse.located_component N (lnps o) v.
  Proof. reflexivity. Qed.
End Bridge.

(** Reset before read: in every route body, on every path, a call that reads the memo fields
    ([t._evaluate(p)], [t._numeric_partial(v, p)]) comes after [t._reset_evaluation_cache()] on the
    same receiver, which entitles RouteAst to read those calls as the pure [eval] / [fwd]
    (Stateful.v). A route that drops the reset fails here. *)
Lemma reset_discipline :
  forallb (fun nf : string * rfun => disciplined [] (r_body (snd nf))) gen_route_all = true.
Proof. reflexivity. Qed.

Lemma route_bodies_listed : List.length gen_route_all = 20%nat.
Proof. reflexivity. Qed.
