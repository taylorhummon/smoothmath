(** [_synthetic_partial_formula*] and [_synthetic_partial] (GeneratedSym.v, run by [SymAst.scall])
    compute the symbolic forward route of Synth.v, for every number interface, variable and tree.
    Calls that leave a method (the recursive call on a child, the class's own formula method) are
    answered by [synth_oracle], i.e. by the model function itself: each lemma is one unfolding, and
    together they say that the model satisfies the recursion equations read off the source. *)
From Coq Require Import ZArith List Bool String.
From SM Require Import Num Syntax MathFun Eval Forward Synth Rules SymAst SymLemmas SymRun GeneratedSym.
Import ListNotations.
Open Scope string_scope.
Open Scope list_scope.

Section Tie.
  Context {T : Type} (N : NumOps T).
  Notation E := (expr T).
  Notation val := (val (T:=T)).

  Definition synth_oracle (f : string) (args : list val) : option val :=
    if String.eqb f "_synthetic_partial" then
      match args with [VE x; VS v] => Some (VE (synth_fwd N v x)) | _ => None end
    else if String.eqb f "_synthetic_partial_formula" then
      match args with
      | [VE e; VE m] =>
          match e with
          | Neg _ | Recip _ | Sin _ | Cos _ | NthPow _ _ | NthRoot _ _ | Exp _ _ | Log _ _ =>
              Some (VE (synth_unary_formula N e m))
          | _ => None
          end
      | _ => None
      end
    else if String.eqb f "_synthetic_partial_formula_left" then
      match args with
      | [VE (Divide a b); VE m] => Some (VE (synth_divide_left a b m))
      | [VE (Power a b); VE m] => Some (VE (synth_power_left N a b m))
      | _ => None
      end
    else if String.eqb f "_synthetic_partial_formula_right" then
      match args with
      | [VE (Divide a b); VE m] => Some (VE (synth_divide_right a b m))
      | [VE (Power a b); VE m] => Some (VE (synth_power_right N a b m))
      | _ => None
      end
    else None.

  Definition runf (f : sfun) (e : E) (args : list val) : option val := scall N synth_oracle f (VE e) args.

  Definition formula_by (g : sfun) (e : E) : Prop :=
    forall m, runf g e [VE m] = Some (VE (synth_unary_formula N e m)).
  Definition partial_by (g : sfun) (e : E) : Prop :=
    forall v, runf g e [VS v] = Some (VE (synth_fwd N v e)).

  Local Hint Unfold formula_by partial_by runf : scall.

  Lemma formula_Negation_tied : forall a, formula_by gen_sym_Negation_synthetic_partial_formula (Neg a).
  Proof. run_method. reflexivity. Qed.

  Lemma formula_Reciprocal_tied : forall a, formula_by gen_sym_Reciprocal_synthetic_partial_formula (Recip a).
  Proof. run_method. reflexivity. Qed.

  Lemma formula_Sine_tied : forall a, formula_by gen_sym_Sine_synthetic_partial_formula (Sin a).
  Proof. run_method. reflexivity. Qed.

  Lemma formula_Cosine_tied : forall a, formula_by gen_sym_Cosine_synthetic_partial_formula (Cos a).
  Proof. run_method. reflexivity. Qed.

  Lemma formula_NthPower_tied : forall a n, formula_by gen_sym_NthPower_synthetic_partial_formula (NthPow a n).
  Proof.
    intros a n m. destruct n as [q|q|]; run_method; reflexivity.
  Qed.

  Lemma formula_NthRoot_tied : forall a n, formula_by gen_sym_NthRoot_synthetic_partial_formula (NthRoot a n).
  Proof.
    intros a n m. destruct n as [q|q|]; run_method; reflexivity.
  Qed.

  Lemma formula_Exponential_tied : forall a b, formula_by gen_sym_Exponential_synthetic_partial_formula (Exp a b).
  Proof.
    run_method. destruct (neqb N b (nofZ N 1)); [reflexivity|].
    destruct (neqb N b (n_e N)); reflexivity.
  Qed.

  Lemma formula_Logarithm_tied : forall a b, formula_by gen_sym_Logarithm_synthetic_partial_formula (Log a b).
  Proof. run_method. destruct (neqb N b (n_e N)); reflexivity. Qed.

  Lemma formula_left_Divide_tied : forall a b m,
    runf gen_sym_Divide_synthetic_partial_formula_left (Divide a b) [VE m] = Some (VE (synth_divide_left a b m)).
  Proof. run_method. reflexivity. Qed.

  Lemma formula_right_Divide_tied : forall a b m,
    runf gen_sym_Divide_synthetic_partial_formula_right (Divide a b) [VE m] = Some (VE (synth_divide_right a b m)).
  Proof. run_method. reflexivity. Qed.

  Lemma formula_left_Power_tied : forall a b m,
    runf gen_sym_Power_synthetic_partial_formula_left (Power a b) [VE m] = Some (VE (synth_power_left N a b m)).
  Proof. run_method. reflexivity. Qed.

  Lemma formula_right_Power_tied : forall a b m,
    runf gen_sym_Power_synthetic_partial_formula_right (Power a b) [VE m] = Some (VE (synth_power_right N a b m)).
  Proof. run_method. reflexivity. Qed.

  Lemma synthetic_partial_Constant_tied : forall c, partial_by gen_sym_Constant_synthetic_partial (Const c).
  Proof. run_method. reflexivity. Qed.

  Lemma synthetic_partial_Variable_tied : forall x, partial_by gen_sym_Variable_synthetic_partial (Var x).
  Proof. run_method. cbn [synth_fwd]. destruct (name_eqb x v); reflexivity. Qed.

  Lemma synthetic_partial_Minus_tied : forall a b, partial_by gen_sym_Minus_synthetic_partial (Minus a b).
  Proof. run_method. reflexivity. Qed.

  Lemma synthetic_partial_Divide_tied : forall a b, partial_by gen_sym_Divide_synthetic_partial (Divide a b).
  Proof. run_method. reflexivity. Qed.

  Lemma synthetic_partial_Power_tied : forall a b, partial_by gen_sym_Power_synthetic_partial (Power a b).
  Proof. run_method. reflexivity. Qed.

  (* a node of a unary class is any [e] whose [_inner] attribute exists *)
  Lemma synthetic_partial_Unary_tied : forall e a v, attr (VE e) "_inner" = Some (VE a) ->
    runf gen_sym_UnaryExpression_synthetic_partial e [VS v] = Some (VE (synth_fwd N v e)).
  Proof. intros e a v H. destruct e; try discriminate H; run_method; reflexivity. Qed.

  Lemma synthetic_partial_Add_tied : forall l, partial_by gen_sym_Add_synthetic_partial (Add l).
  Proof.
    run_method.
    rewrite (comp_loop_map _ VE _ _ (fun e => VE (synth_fwd N v e)) (fun _ => true)) by reflexivity.
    ev_sym. rewrite filter_true, app_nil_r, as_exprs_map. reflexivity.
  Qed.
End Tie.
