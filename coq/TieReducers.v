(** Static tie: the reducer lists of Rules.v are, name for name and in order, the lists
    returned by each class's _reducers. *)
From Coq Require Import List String Bool.
From SM Require Import Num Rules Generated.
Import ListNotations.
Open Scope string_scope.

Section Names.
  Context {T : Type} (N : NumOps T).
  Definition names (rs : list (rule (T:=T))) : list string := map fst rs.

  (* the reducer lists of Rules.v, per class, sorted by class name as the generator sorts *)
  Definition model_reducers : list (string * list string) :=
    [ ("Add", names (reducers_Add N));
      ("Cosine", names reducers_Cosine);
      ("Divide", names reducers_Divide);
      ("Exponential", names (reducers_Exponential N));
      ("Logarithm", names (reducers_Logarithm N));
      ("Minus", names reducers_Minus);
      ("Multiply", names (reducers_Multiply N));
      ("Negation", names reducers_Negation);
      ("NthPower", names (reducers_NthPower N));
      ("NthRoot", names reducers_NthRoot);
      ("Power", names (reducers_Power N));
      ("Reciprocal", names reducers_Reciprocal);
      ("Sine", names reducers_Sine) ].

  Lemma reducers_tied : gen_reducers = model_reducers.
  Proof. reflexivity. Qed.
End Names.

