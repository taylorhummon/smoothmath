(** [add_to] and [*_partials_for] of the two accumulator classes (GeneratedAcc.v, run by AccAst)
    compute [acc_add], [numeric_partials_for] of Reverse.v and [sacc_add], [synthetic_partials_for]
    of Synth.v, in which a variable met again has its contribution added to what is there and one
    never met reads as 0. *)
From Coq Require Import ZArith List Bool String.
From SM Require Import Num Syntax Outcome MathFun Eval Forward Reverse Synth AccAst GeneratedAcc TieTactics.
From SM.proofs Require Import SyntaxFacts.
Import ListNotations.
Open Scope string_scope.
Open Scope list_scope.

Section Tie.
  Context {T : Type} (N : NumOps T).
  Notation E := (expr T).
  Notation aval := (aval (T:=T)).

  Definition dictN (a : accum (T:=T)) : list (name * aval) := map (fun kv => (fst kv, AVN (snd kv))) a.
  Definition dictE (a : saccum (T:=T)) : list (name * aval) := map (fun kv => (fst kv, AVE (snd kv))) a.

  (* for any value type: [sacc_set] is [acc_set] at expressions up to conversion *)
  Lemma dget_map : forall {A} (inj : A -> aval) v (a : list (name * A)),
    dget v (map (fun kv => (fst kv, inj (snd kv))) a) = match lookup v a with Some w => Some (inj w) | None => None end.
  Proof.
    intros A inj v a. induction a as [|[x w] a IH]; [reflexivity|]. cbn [map fst snd dget lookup].
    destruct (name_eqb v x); [reflexivity | exact IH].
  Qed.

  Lemma dget_E : forall v (a : saccum),
    dget v (dictE a) = match slookup v a with Some w => Some (AVE w) | None => None end.
  Proof. intros v a. rewrite slookup_lookup. apply (dget_map AVE). Qed.

  Lemma dset_map : forall {A} (inj : A -> aval) (a : list (name * A)) v w,
    dset (map (fun kv => (fst kv, inj (snd kv))) a) v (inj w) = map (fun kv => (fst kv, inj (snd kv))) (acc_set a v w).
  Proof.
    intros A inj. induction a as [|[x u] a IH]; intros v w; [reflexivity|]. cbn [map fst snd dset acc_set].
    destruct (name_eqb v x); [reflexivity|]. cbn [map fst snd]. f_equal. apply IH.
  Qed.

  Lemma numeric_add_to_tied : forall (a : accum) (x : name) (c : T),
    acall N gen_acc_NumericPartialsAccumulator_add_to [("_numeric_partials", AVDict (dictN a))] [AVE (Var x); AVN c]
    = Some (AVNone, [("_numeric_partials", AVDict (dictN (acc_add N a x c)))]).
  Proof.
    intros a x c. unfold acc_add, acc_get. ev. rewrite (dget_map AVN).
    destruct (lookup x a); ev; rewrite (dset_map AVN); reflexivity.
  Qed.

  Lemma dset_fresh : forall (d : list (name * aval)) v w, dget v d = None -> dset d v w = d ++ [(v, w)].
  Proof.
    induction d as [|[x u] d IH]; intros v w H; [reflexivity|]. cbn [dget dset app] in *.
    destruct (name_eqb v x); [discriminate|]. f_equal. apply IH. exact H.
  Qed.

  Lemma dget_app_None : forall (d d' : list (name * aval)) v, dget v d = None -> dget v d' = None -> dget v (d ++ d') = None.
  Proof.
    induction d as [|[x u] d IH]; intros d' v H1 H2; [exact H2|]. cbn [dget app] in *.
    destruct (name_eqb v x); [discriminate|]. apply IH; assumption.
  Qed.

  Lemma fold_dset : forall (g : name -> aval) (l : list name) (d : list (name * aval)),
    NoDup l -> (forall x, In x l -> dget x d = None) ->
    fold_left (fun d x => dset d x (g x)) l d = d ++ map (fun x => (x, g x)) l.
  Proof.
    intros g. induction l as [|x l IH]; intros d Hnd Hfresh; cbn [fold_left map].
    - rewrite app_nil_r. reflexivity.
    - inversion Hnd as [|? ? Hnotin Hnd']; subst.
      rewrite (dset_fresh d x _ (Hfresh x (or_introl eq_refl))), IH, <- app_assoc; [reflexivity | exact Hnd' |].
      intros y Hy. apply dget_app_None; [apply Hfresh; right; exact Hy|].
      cbn [dget]. destruct (name_eqb y x) eqn:Hyx; [|reflexivity].
      apply Pos.eqb_eq in Hyx. subst. contradiction.
  Qed.

  (* as TieUtil.ufor_spec *)
  Lemma afor_spec : forall (S : Type) (E : S -> option name -> aenv (T:=T)) (fs : aenv (T:=T))
                          (step : S -> name -> S) body (l : list name),
    (forall s o it, body (E s o, fs) it = Some (inl (E (step s it) (Some it), fs))) ->
    forall s o, exists o', afor_loop body (E s o, fs) l = Some (inl (E (fold_left step l s) o', fs)).
  Proof.
    intros S E fs step body l Hb. induction l as [|x l IH]; intros s o; cbn [fold_left afor_loop].
    - exists o. reflexivity.
    - rewrite Hb. apply IH.
  Qed.

  Definition results_env (enum0 : list name) (extra : name -> list (string * aval))
                         (d : list (name * aval)) (o : option name) : aenv (T:=T) :=
    [("variable_names", AVNames enum0); ("results", AVDict d)]
    ++ match o with Some it => ("variable_name", AVName it) :: extra it | None => [] end.

  Lemma numeric_partials_for_tied : forall (a : accum) (enum : list name), NoDup enum ->
    acall N gen_acc_NumericPartialsAccumulator_numeric_partials_for [("_numeric_partials", AVDict (dictN a))] [AVNames enum]
    = Some (AVDict (map (fun x => (x, match lookup x a with Some w => AVN w | None => AVZ 0 end)) enum),
            [("_numeric_partials", AVDict (dictN a))]).
  Proof.
    (* the loop body stays a closure over an unknown state: [cbn] leaves the lookups in it folded,
       where [ev] would unfold them *)
    intros a enum Hnd. unfold acall. cbn -[dictN].
    match goal with |- context [afor_loop ?b (_, ?fs) enum] =>
      set (body := b);
      destruct (afor_spec _ (results_env enum (fun _ => [])) fs
                  (fun d x => dset d x (match lookup x a with Some w => AVN w | None => AVZ 0 end)) body enum)
        with (s := @nil (name * aval)) (o := @None name) as (o' & Hl)
    end.
    - intros d o it. unfold body. destruct o; ev; rewrite (dget_map AVN); destruct (lookup it a); reflexivity.
    - cbn [results_env app] in Hl. rewrite Hl, fold_dset by (exact Hnd || reflexivity).
      destruct o'; reflexivity.
  Qed.

  (* read back as numbers: the int 0 default is the model's [acc_get] *)
  Lemma numeric_partials_for_model : forall (a : accum) (enum : list name),
    map (fun x => (x, match lookup x a with Some w => w | None => n0 N end)) enum = numeric_partials_for N a enum.
  Proof. reflexivity. Qed.

  Lemma synthetic_add_to_tied : forall (a : saccum) (x : name) (c : E),
    acall N gen_acc_SyntheticPartialsAccumulator_add_to [("_synthetic_partials", AVDict (dictE a))] [AVE (Var x); AVE c]
    = Some (AVNone, [("_synthetic_partials", AVDict (dictE (sacc_add a x c)))]).
  Proof.
    intros a x c. unfold sacc_add. ev. rewrite dget_E.
    destruct (slookup x a); ev; rewrite (dset_map AVE); reflexivity.
  Qed.

  Lemma synthetic_partials_for_tied : forall (a : saccum) (enum : list name), NoDup enum ->
    acall N gen_acc_SyntheticPartialsAccumulator_synthetic_partials_for [("_synthetic_partials", AVDict (dictE a))] [AVNames enum]
    = Some (AVDict (dictE (synthetic_partials_for N a enum)), [("_synthetic_partials", AVDict (dictE a))]).
  Proof.
    intros a enum Hnd. unfold acall. cbn -[dictE nofZ].
    match goal with |- context [afor_loop ?b (_, ?fs) enum] =>
      set (body := b);
      destruct (afor_spec _ (results_env enum (fun it =>
                              [("optional", match slookup it a with Some w => AVE w | None => AVNone end)])) fs
                  (fun d x => dset d x (AVE (match slookup x a with Some w => w | None => Const (nofZ N 0) end))) body enum)
        with (s := @nil (name * aval)) (o := @None name) as (o' & Hl)
    end.
    - intros d o it. unfold body.
      destruct o; ev; rewrite dget_E; destruct (slookup it a); reflexivity.
    - cbn [results_env app] in Hl. rewrite Hl, fold_dset by (exact Hnd || reflexivity).
      unfold dictE, synthetic_partials_for, n0. rewrite map_map. destruct o'; reflexivity.
  Qed.

  Lemma acc_inits_tied :
    gen_acc_inits = [("NumericPartialsAccumulator", "_numeric_partials"); ("SyntheticPartialsAccumulator", "_synthetic_partials")].
  Proof. reflexivity. Qed.
End Tie.
