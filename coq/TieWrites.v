From Coq Require Import List String Bool.
From SM Require Import Generated.
Import ListNotations.
Open Scope string_scope.

(** * TieWrites (C10): the effects table.  Every write site of the sources is one of:
    - a memo field (cache, flags, memoised symbolic partials), on any receiver;
    - a field of the object under construction, inside __init__;
    - the private dict of an accumulator object, inside its own add_to;
    - a container created in the same function body. *)
Definition memo_fields : list string :=
  [ "_value"; "_is_fully_reduced"; "_evaluation_failed"; "_synthetic_partial" ].

Definition str_in (s : string) (l : list string) : bool := existsb (String.eqb s) l.

Definition write_allowed (w : string * string * string * string * string) : bool :=
  match w with
  | (owner, func, how, kind, field) =>
      (* memo field, plain assignment *)
      (String.eqb how "assign" && str_in field memo_fields)
      (* construction of self *)
      || (String.eqb func "__init__" && String.eqb how "assign" && String.eqb kind "self")
      (* accumulators *)
      || (str_in owner ["NumericPartialsAccumulator"; "SyntheticPartialsAccumulator"]
          && String.eqb func "add_to" && String.eqb kind "self.field")
      (* locally created containers *)
      || String.eqb kind "local_fresh"
  end.

Theorem writes_framed : forallb write_allowed gen_writes = true.
Proof. vm_compute. reflexivity. Qed.

Corollary writes_framed_forall : forall w, In w gen_writes -> write_allowed w = true.
Proof. apply forallb_forall. exact writes_framed. Qed.
