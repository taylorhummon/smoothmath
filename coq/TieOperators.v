From Coq Require Import List String Bool.
From SM Require Import Generated.
Import ListNotations.
Open Scope string_scope.

(* operator overloads (the op_ functions of Objects.v); no reflected (__radd__ ...) operators exist *)
Definition model_operators : list (string * list string) :=
  [ ("__add__", ["Add(self,other)"]); ("__mul__", ["Multiply(self,other)"]);
    ("__neg__", ["Negation(self)"]); ("__pow__", ["Power(self,exponent)"; "NthPower(self,n)"]);
    ("__sub__", ["Minus(self,other)"]); ("__truediv__", ["Divide(self,other)"]) ].
Lemma operators_tied : gen_operators = model_operators.
Proof. reflexivity. Qed.

