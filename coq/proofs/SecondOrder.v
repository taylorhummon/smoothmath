(** [C05_second_order] (SpecMore.v): differentiating a symbolic partial again gives the true
    second-order partial; [synth_fwd_sound] twice. *)
From SM Require Import Synth RInst SpecMore.
From SM.proofs Require Import SynthSound.

Theorem second_order : C05_second_order.
Proof.
  intros rho e v w Hwf Hdom s s2.
  destruct (synth_fwd_sound rho e v Hwf Hdom) as [Hwfs [Hvs [Hds _]]].
  destruct (synth_fwd_sound rho (synth_fwd RInst v e) w Hwfs Hds) as [Hwf2 [Hv2 [Hd2 Htp2]]].
  split; [|split; [|split; [|split]]].
  - exact Hwf2.
  - intros x Hx. apply Hvs. apply Hv2. exact Hx.
  - exact Hd2.
  - exact Htp2.
  - intros rho' Hd'. destruct (synth_fwd_sound rho' e v Hwf Hd') as [_ [_ [_ H]]]. exact H.
Qed.
Print Assumptions second_order.
