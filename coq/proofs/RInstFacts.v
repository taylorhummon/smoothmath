(** The number interface and the specification at [RInst].  A step that may raise DomainError
    [yields o D v]: the value [v] on [D], DomainError off it.  Every constrained node has its
    check, which [guards] the domain, and its value formula on the domain; [unary_dom] and
    [unary_den] describe the eight unary classes at once. *)
From Coq Require Import Reals ZArith List Bool Lra Lia.
From SM Require Import Num Syntax Outcome MathFun Eval Forward Routes RInst Denote Spec.
From SM.proofs Require Import SyntaxFacts.
Import ListNotations.
Open Scope R_scope.

Lemma match_pos_not1 {A} (n : positive) (a b : A) :
  n <> 1%positive -> match n with 1%positive => a | _ => b end = b.
Proof. intro H. destruct n; [reflexivity | reflexivity | congruence]. Qed.

Lemma to_nat_pred (n : positive) :
  n <> 1%positive -> Pos.to_nat (Pos.pred n) = (Pos.to_nat n - 1)%nat.
Proof. intro H. rewrite Pos2Nat.inj_pred by lia. lia. Qed.

Lemma mul_loop_R : forall vs acc, mul_loop RInst acc vs = acc * fold_right Rmult 1 vs.
Proof.
  induction vs as [|a r IH]; intro acc; simpl.
  - ring.
  - destruct (Reqb a 0) eqn:E.
    + apply Reqb_true in E. subst a. ring.
    + rewrite IH. ring.
Qed.

Lemma mf_multiply_R : forall vs, mf_multiply RInst vs = fold_right Rmult 1 vs.
Proof.
  intro vs. unfold mf_multiply. rewrite mul_loop_R. simpl. ring.
Qed.

Lemma mf_add_R : forall vs, mf_add RInst vs = fold_right Rplus 0 vs.
Proof. intro vs. reflexivity. Qed.

Lemma one_over_R n : one_over RInst n = / IZR (Zpos n).
Proof. unfold one_over. simpl. unfold Rdiv. apply Rmult_1_l. Qed.

Lemma Rpower_pos x y : 0 < Rpower x y.
Proof. unfold Rpower. apply exp_pos. Qed.

Lemma root_of_pos n x : 0 < x -> root n x = Rpower x (/ IZR (Zpos n)).
Proof.
  intro H. unfold root. destruct (Rlt_dec 0 x) as [_|N]; [reflexivity|contradiction].
Qed.

Lemma root_of_neg n x : x < 0 -> root n x = - Rpower (- x) (/ IZR (Zpos n)).
Proof.
  intro H. unfold root. destruct (Rlt_dec 0 x) as [P|_]; [lra|].
  destruct (Rlt_dec x 0) as [_|N]; [reflexivity|contradiction].
Qed.

Lemma root_of_0 n : root n 0 = 0.
Proof.
  unfold root. destruct (Rlt_dec 0 0) as [P|_]; [lra|].
  destruct (Rlt_dec 0 0) as [P|_]; [lra|reflexivity].
Qed.

Lemma root_1 : forall x, root 1 x = x.
Proof.
  intro x. destruct (Rtotal_order x 0) as [H|[H|H]].
  - rewrite root_of_neg by assumption. rewrite Rinv_1, Rpower_1 by lra. ring.
  - subst x. apply root_of_0.
  - rewrite root_of_pos by assumption. rewrite Rinv_1, Rpower_1 by lra. reflexivity.
Qed.

Lemma root_pos : forall n x, 0 < x -> 0 < root n x.
Proof. intros n x H. rewrite root_of_pos by assumption. apply Rpower_pos. Qed.

Lemma root_neg : forall n x, x < 0 -> root n x < 0.
Proof.
  intros n x H. rewrite root_of_neg by assumption.
  pose proof (Rpower_pos (- x) (/ IZR (Zpos n))). lra.
Qed.

Lemma root_nonzero : forall n x, x <> 0 -> root n x <> 0.
Proof.
  intros n x H. destruct (Rtotal_order x 0) as [L|[E|G]].
  - pose proof (root_neg n x L). lra.
  - contradiction.
  - pose proof (root_pos n x G). lra.
Qed.

Lemma root_2_sqrt x : 0 < x -> root 2 x = sqrt x.
Proof. intro H. rewrite root_of_pos by assumption. apply Rpower_sqrt; assumption. Qed.

(* the domain of NthRoot: with n = 1 every value passes [verify_nth_root] *)
Definition root_dom (n : positive) (x : R) : Prop :=
  n = 1%positive \/ (x <> 0 /\ (Z.even (Zpos n) = true -> 0 < x)).

Lemma root_dom_nonzero n x : root_dom n x -> n <> 1%positive -> x <> 0.
Proof. intros [->|[H _]] N; [contradiction N; reflexivity|exact H]. Qed.

Lemma prim_pow_pos_R x y : 0 < x -> prim_pow RInst x y = Val (Rpower x y).
Proof.
  intro H. unfold prim_pow. simpl.
  assert (E0 : Reqb x 0 = false) by (apply Reqb_false; lra).
  assert (L0 : Rltb x 0 = false) by (apply Rltb_false; lra).
  rewrite E0, L0. reflexivity.
Qed.

Lemma prim_sqrt_pos_R x : 0 < x -> prim_sqrt RInst x = Val (sqrt x).
Proof.
  intro H. unfold prim_sqrt. simpl.
  assert (L0 : Rltb x 0 = false) by (apply Rltb_false; lra).
  rewrite L0. reflexivity.
Qed.

Lemma mf_nth_root_pos_R n x : 0 < x -> mf_nth_root RInst x n = Val (root n x).
Proof.
  intro H.
  assert (P : Rltb 0 x = true) by (apply Rltb_true; assumption).
  assert (G : forall m (o : outcome R),
             (if Rltb 0 x then prim_pow RInst x (one_over RInst m) else o) = Val (root m x)).
  { intros m o. rewrite P, prim_pow_pos_R, one_over_R, root_of_pos by assumption. reflexivity. }
  unfold mf_nth_root.
  destruct n as [[n'|n'|]|[n'|n'|]|];
    cbn [Z.even nltb neqb nfloat ncbrt nneg RInst n0 nofZ];
    try (apply G).
  - (* n = 3 *) rewrite P. rewrite root_of_pos by assumption. reflexivity.
  - (* n = 2 *) rewrite P. rewrite prim_sqrt_pos_R, root_2_sqrt by assumption. reflexivity.
  - (* n = 1 *) rewrite root_1. reflexivity.
Qed.

Lemma mf_nth_root_neg_odd_R n x :
  x < 0 -> Z.even (Zpos n) = false -> mf_nth_root RInst x n = Val (root n x).
Proof.
  intros H Hodd.
  assert (P : Rltb 0 x = false) by (apply Rltb_false; lra).
  assert (E0 : Reqb x 0 = false) by (apply Reqb_false; lra).
  assert (G : forall m,
             (if Rltb 0 x then prim_pow RInst x (one_over RInst m)
              else if Reqb x 0 then DomErr
              else r <- prim_pow RInst (- x) (one_over RInst m) ;; Val (- r))
             = Val (root m x)).
  { intro m. rewrite P, E0, prim_pow_pos_R, one_over_R, root_of_neg by lra. reflexivity. }
  unfold mf_nth_root.
  destruct n as [[n'|n'|]|[n'|n'|]|];
    cbn [Z.even nltb neqb nfloat ncbrt nneg RInst n0 nofZ] in *;
    try discriminate; try (apply G).
  - (* n = 3 *) rewrite P, E0. rewrite root_of_neg by assumption. reflexivity.
  - (* n = 1 *) rewrite root_1. reflexivity.
Qed.

Lemma mf_nth_root_R n x : root_dom n x -> mf_nth_root RInst x n = Val (root n x).
Proof.
  intros [H1|[Hx He]].
  - subst n. unfold mf_nth_root. simpl. rewrite root_1. reflexivity.
  - destruct (Rtotal_order x 0) as [L|[E|G]].
    + apply mf_nth_root_neg_odd_R; [assumption|].
      destruct (Z.even (Zpos n)) eqn:Ev; [|reflexivity].
      specialize (He eq_refl). lra.
    + contradiction.
    + apply mf_nth_root_pos_R; assumption.
Qed.

Definition yields {A} (o : outcome A) (D : Prop) (v : A) : Prop :=
  (D /\ o = Val v) \/ (~ D /\ o = DomErr).

Notation guards o D := (yields o D tt).

Lemma yields_Val {A} (v : A) : yields (Val v) True v.
Proof. left. split; [exact I|reflexivity]. Qed.

Lemma yields_on {A} (o : outcome A) D v : yields o D v -> D -> o = Val v.
Proof. intros [[_ E]|[N _]] H; [exact E|contradiction]. Qed.

Lemma yields_off {A} (o : outcome A) D v : yields o D v -> ~ D -> o = DomErr.
Proof. intros [[H _]|[_ E]] N; [contradiction|exact E]. Qed.

Lemma yields_iff {A} (o : outcome A) D D' v v' :
  yields o D v -> (D <-> D') -> (D -> v = v') -> yields o D' v'.
Proof.
  intros [[H E]|[H E]] HD Hv; [left; rewrite <- (Hv H)|right]; (split; [tauto|exact E]).
Qed.

Lemma yields_bind {A B} (o : outcome A) D v (f : A -> outcome B) D' w :
  yields o D v -> (D -> yields (f v) D' w) -> yields (bind o f) (D /\ D') w.
Proof.
  intros [[H ->]|[H ->]] K; cbn [bind]; [|right; split; [tauto|reflexivity]].
  destruct (K H) as [[H' E]|[H' E]]; [left|right]; (split; [tauto|exact E]).
Qed.

Lemma yields_guarded {A} o D (k : outcome A) v :
  guards o D -> (D -> k = Val v) -> yields (_ <- o ;; k) D v.
Proof.
  intros [[H ->]|[H ->]] K; [left; split; [exact H|exact (K H)]|right; split; [exact H|reflexivity]].
Qed.

Lemma yields_sequence {X A} (f : X -> outcome A) (D : X -> Prop) (g : X -> A) l :
  Forall (fun x => yields (f x) (D x) (g x)) l -> yields (sequence (map f l)) (Forall D l) (map g l).
Proof.
  induction 1 as [|x r Hx Hr IH]; cbn [map sequence].
  - left. split; [constructor|reflexivity].
  - eapply yields_iff;
      [eapply yields_bind; [exact Hx|intros _; eapply yields_bind; [exact IH|intros _; apply yields_Val]]
      |rewrite Forall_cons_iff; tauto|reflexivity].
Qed.

Definition vd {A} (o : outcome A) : Prop := (exists r, o = Val r) \/ o = DomErr.

Lemma vd_Val {A} (a : A) : vd (Val a).
Proof. left. exists a. reflexivity. Qed.
Lemma vd_DomErr {A} : vd (@DomErr A).
Proof. right. reflexivity. Qed.

Lemma yields_vd {A} (o : outcome A) D v : yields o D v -> vd o.
Proof. intros [[_ ->]|[_ ->]]; [apply vd_Val|apply vd_DomErr]. Qed.

(* decides the comparisons of RInst whose arguments a hypothesis compares *)
Ltac rbool :=
  repeat match goal with
  | H : ?x = ?y |- context [Reqb ?x ?y] => rewrite (proj2 (Reqb_true x y) H)
  | H : ?x <> ?y |- context [Reqb ?x ?y] => rewrite (proj2 (Reqb_false x y) H)
  | H : ?x < ?y |- context [Rltb ?x ?y] => rewrite (proj2 (Rltb_true x y) H)
  | H : ~ ?x < ?y |- context [Rltb ?x ?y] => rewrite (proj2 (Rltb_false x y) H)
  end.

Lemma verify_divide_R x y : guards (verify_divide RInst x y) (y <> 0).
Proof.
  unfold yields, verify_divide. simpl. destruct (Req_EM_T y 0) as [E|E]; rbool; [right|left]; tauto.
Qed.

Lemma verify_logarithm_R x : guards (verify_logarithm RInst x) (0 < x).
Proof.
  unfold yields, verify_logarithm. simpl. destruct (Req_EM_T x 0) as [E|E]; rbool; [right; split; [lra|reflexivity]|].
  destruct (Rlt_dec x 0) as [L|L]; rbool; [right|left]; split; try reflexivity; lra.
Qed.

Lemma verify_power_R x y : guards (verify_power RInst x y) (0 < x).
Proof. exact (verify_logarithm_R x). Qed.

Lemma verify_nth_root_R x n : guards (verify_nth_root RInst x n) (root_dom n x).
Proof.
  unfold verify_nth_root, root_dom. simpl.
  destruct (Pos.eq_dec n 1) as [->|N].
  { left. split; [left|]; reflexivity. }
  assert (L : (2 <=? n)%positive = true) by (apply Pos.leb_le; lia). rewrite L. cbn [andb].
  destruct (Req_EM_T x 0) as [E|E]; rbool.
  { right. split; [intros [H|[H _]]; contradiction|reflexivity]. }
  destruct n as [n'|n'|]; cbn [andb].
  - left. split; [right; split; [exact E|discriminate]|reflexivity].
  - destruct (Rlt_dec x 0) as [Lx|Lx]; rbool; [right|left]; (split; [|reflexivity]).
    + intros [H|[_ H]]; [contradiction|]. specialize (H eq_refl). lra.
    + right. split; [exact E|intros _; lra].
  - contradiction N; reflexivity.
Qed.

Lemma mf_divide_R x y : y <> 0 -> mf_divide RInst x y = Val (x / y).
Proof. intro H. unfold mf_divide, prim_div. simpl. rbool. reflexivity. Qed.

Lemma mf_reciprocal_R x : x <> 0 -> mf_reciprocal RInst x = Val (/ x).
Proof.
  intro H. unfold mf_reciprocal, prim_div. simpl. rbool. unfold Rdiv. rewrite Rmult_1_l. reflexivity.
Qed.

Lemma mf_power_R x y : 0 < x -> mf_power RInst x y = Val (Rpower x y).
Proof.
  intro H. assert (H0 : x <> 0) by lra. assert (H1 : ~ x < 0) by lra.
  unfold mf_power. simpl. rbool. rewrite prim_pow_pos_R by assumption. reflexivity.
Qed.

Lemma mf_exponential_R x b : 0 < b -> mf_exponential RInst x b = Val (Rpower b x).
Proof.
  intro H. assert (H0 : b <> 0) by lra. assert (H1 : ~ b < 0) by lra.
  unfold mf_exponential, nleb. simpl. rbool. cbn [orb].
  rewrite prim_pow_pos_R by assumption. reflexivity.
Qed.

Lemma mf_logarithm_R x b :
  0 < b -> b <> 1 -> 0 < x -> mf_logarithm RInst x b = Val (ln x / ln b).
Proof.
  intros Hb Hb1 Hx.
  assert (H0 : b <> 0) by lra. assert (H1 : ~ b < 0) by lra.
  assert (H2 : x <> 0) by lra. assert (H3 : ~ x < 0) by lra.
  assert (H4 : ln b <> 0) by (apply ln_neq_0; assumption).
  unfold mf_logarithm, prim_log, nleb. simpl. rbool. reflexivity.
Qed.

Lemma exp_1_gt_1 : 1 < exp 1.
Proof. pose proof (exp_ineq1 1). lra. Qed.

Lemma mf_logarithm_e x : 0 < x -> mf_logarithm RInst x (exp 1) = Val (ln x).
Proof.
  intro H. pose proof exp_1_gt_1. rewrite mf_logarithm_R by lra. rewrite ln_exp. f_equal. field.
Qed.

Lemma checked_divide_R x y :
  yields (_ <- verify_divide RInst x y ;; mf_divide RInst x y) (y <> 0) (x / y).
Proof. exact (yields_guarded _ _ _ _ (verify_divide_R x y) (mf_divide_R x y)). Qed.

Lemma checked_power_R x y :
  yields (_ <- verify_power RInst x y ;; mf_power RInst x y) (0 < x) (Rpower x y).
Proof. exact (yields_guarded _ _ _ _ (verify_power_R x y) (mf_power_R x y)). Qed.

Lemma wf_Exp_R a b : wfR (Exp a b) <-> 0 < b /\ wfR a.
Proof. cbn [wf]. change (nltb RInst (n0 RInst) b) with (Rltb 0 b). rewrite Rltb_true. tauto. Qed.

Lemma wf_Log_R a b : wfR (Log a b) <-> 0 < b /\ b <> 1 /\ wfR a.
Proof.
  cbn [wf]. change (nltb RInst (n0 RInst) b) with (Rltb 0 b).
  change (neqb RInst b (n1 RInst)) with (Reqb b 1).
  rewrite Rltb_true, Reqb_false. tauto.
Qed.

(* Without [wf] a bad base makes the value formula of Exp and Log raise DomainError itself. *)

Lemma mf_exponential_bad x b : ~ 0 < b -> mf_exponential RInst x b = DomErr.
Proof.
  intro H. unfold mf_exponential, nleb. simpl.
  destruct (Req_EM_T b 0) as [E|E]; rbool; [rewrite orb_true_r; reflexivity|].
  assert (H1 : b < 0) by lra. rbool. reflexivity.
Qed.

Lemma vd_mf_exponential x b : vd (mf_exponential RInst x b).
Proof.
  destruct (Rlt_dec 0 b) as [Z|Z].
  - rewrite mf_exponential_R by assumption. apply vd_Val.
  - rewrite mf_exponential_bad by assumption. apply vd_DomErr.
Qed.

Lemma mf_logarithm_bad_base x b : ~ 0 < b \/ b = 1 -> mf_logarithm RInst x b = DomErr.
Proof.
  intro H. unfold mf_logarithm, nleb. simpl.
  destruct (Rlt_dec 0 b) as [P|P].
  - destruct H as [H|H]; [contradiction|].
    assert (H0 : b <> 0) by lra. assert (H1 : ~ b < 0) by lra. rbool. reflexivity.
  - destruct (Req_EM_T b 0) as [E|E]; rbool; [rewrite orb_true_r; reflexivity|].
    assert (H1 : b < 0) by lra. rbool. reflexivity.
Qed.

(* for [x <= 0] and a good base math.log raises ValueError: the check of Log comes first *)
Lemma vd_mf_logarithm x b : 0 < x -> vd (mf_logarithm RInst x b).
Proof.
  intro Hx. destruct (Rlt_dec 0 b) as [Hb|Hb]; [destruct (Req_EM_T b 1) as [E|E]|].
  - rewrite mf_logarithm_bad_base by (right; exact E). apply vd_DomErr.
  - rewrite mf_logarithm_R by assumption. apply vd_Val.
  - rewrite mf_logarithm_bad_base by (left; exact Hb). apply vd_DomErr.
Qed.

Lemma vd_verify_divide x y : vd (verify_divide RInst x y).
Proof. exact (yields_vd _ _ _ (verify_divide_R x y)). Qed.
Lemma vd_verify_power x y : vd (verify_power RInst x y).
Proof. exact (yields_vd _ _ _ (verify_power_R x y)). Qed.

Lemma vd_mf_divide x y : vd (mf_divide RInst x y).
Proof.
  unfold mf_divide, prim_div. simpl. destruct (Reqb y 0); [apply vd_DomErr|apply vd_Val].
Qed.

Lemma vd_mf_power x y : vd (mf_power RInst x y).
Proof.
  destruct (Rlt_dec 0 x) as [Z|Z].
  - rewrite mf_power_R by assumption. apply vd_Val.
  - unfold mf_power. simpl. destruct (Req_EM_T x 0) as [E|E]; rbool; [apply vd_DomErr|].
    assert (H1 : x < 0) by lra. rbool. apply vd_DomErr.
Qed.

Lemma vd_mf_nth_power x n : vd (mf_nth_power RInst x n).
Proof. exact (vd_Val _). Qed.
Lemma vd_mf_sine x : vd (mf_sine RInst x).
Proof. exact (vd_Val _). Qed.
Lemma vd_mf_cosine x : vd (mf_cosine RInst x).
Proof. exact (vd_Val _). Qed.

Definition unary_dom (e : expr R) (x : R) : Prop :=
  match e with
  | Recip _ => x <> 0
  | NthRoot _ n => root_dom n x
  | Log _ _ => 0 < x
  | _ => True
  end.

Definition unary_den (e : expr R) (x : R) : R :=
  match e with
  | Neg _ => - x
  | Recip _ => / x
  | Sin _ => sin x
  | Cos _ => cos x
  | NthPow _ n => x ^ Pos.to_nat n
  | NthRoot _ n => root n x
  | Exp _ b => Rpower b x
  | Log _ b => ln x / ln b
  | _ => x
  end.

Lemma denote_unary rho e : denote rho e = unary_den e (denote rho (inner_of e)).
Proof. destruct e; reflexivity. Qed.

Lemma InDomain_unary rho e :
  InDomain rho e <-> InDomain rho (inner_of e) /\ unary_dom e (denote rho (inner_of e)).
Proof. destruct e; cbn [InDomain inner_of unary_dom]; unfold root_dom; tauto. Qed.

Lemma unary_verify_R e x : guards (unary_verify RInst e x) (unary_dom e x).
Proof.
  destruct e; cbn [unary_verify unary_dom]; try apply yields_Val.
  - exact (verify_divide_R x x).
  - apply verify_nth_root_R.
  - apply verify_logarithm_R.
Qed.

Lemma vd_unary_verify e x : vd (unary_verify RInst e x).
Proof. exact (yields_vd _ _ _ (unary_verify_R e x)). Qed.

Lemma unary_value_R e x :
  wfR e -> unary_dom e x -> unary_value RInst e x = Val (unary_den e x).
Proof.
  destruct e; cbn [unary_value unary_dom unary_den]; intros W D; try reflexivity.
  - apply mf_reciprocal_R, D.
  - apply mf_nth_root_R, D.
  - apply wf_Exp_R in W. apply mf_exponential_R, W.
  - apply wf_Log_R in W. apply mf_logarithm_R; tauto.
Qed.

Lemma checked_unary_R e x : wfR e ->
  yields (_ <- unary_verify RInst e x ;; unary_value RInst e x) (unary_dom e x) (unary_den e x).
Proof. intro W. exact (yields_guarded _ _ _ _ (unary_verify_R e x) (unary_value_R e x W)). Qed.

Lemma vd_checked_unary e x : vd (_ <- unary_verify RInst e x ;; unary_value RInst e x).
Proof.
  destruct (unary_verify_R e x) as [[D ->]|[_ ->]]; cbn [bind]; [|apply vd_DomErr].
  destruct e; cbn [unary_value unary_dom] in *; try apply vd_Val.
  - rewrite mf_reciprocal_R by exact D. apply vd_Val.
  - rewrite mf_nth_root_R by exact D. apply vd_Val.
  - apply vd_mf_exponential.
  - apply vd_mf_logarithm, D.
Qed.

Lemma eval_unary_Val p e x : is_unary e = true -> wfR e ->
  evalR p (inner_of e) = Val x -> unary_dom e x -> evalR p e = Val (unary_den e x).
Proof.
  intros U W E D. rewrite (eval_unary RInst p e U), E. exact (yields_on _ _ _ (checked_unary_R e x W) D).
Qed.

Lemma InDomain_Add_Forall rho l : InDomain rho (Add l) <-> Forall (InDomain rho) l.
Proof. apply fold_and_Forall. Qed.
Lemma InDomain_Mul_Forall rho l : InDomain rho (Mul l) <-> Forall (InDomain rho) l.
Proof. apply fold_and_Forall. Qed.

Lemma denote_nary_map rho l :
  denote rho (Add l) = fold_right Rplus 0 (map (denote rho) l) /\
  denote rho (Mul l) = fold_right Rmult 1 (map (denote rho) l).
Proof.
  cbn [denote]. induction l as [|a r [IHa IHm]]; cbn [fold_right map]; [split; reflexivity|].
  rewrite IHa, IHm. split; reflexivity.
Qed.

Definition denote_Add_map rho l := proj1 (denote_nary_map rho l).
Definition denote_Mul_map rho l := proj2 (denote_nary_map rho l).

Lemma supplies_Const p c : supplies p (Const c).
Proof. intros x []. Qed.

Lemma supplies_Var p x : supplies p (Var x) <-> lookup x p <> None.
Proof.
  unfold supplies; cbn [vars]. split.
  - intro H. apply H. left. reflexivity.
  - intros H y [<-|[]]. assumption.
Qed.

Lemma supplies_flat_map p (l : list (expr R)) :
  (forall x, In x (flat_map vars l) -> lookup x p <> None) <-> Forall (supplies p) l.
Proof.
  split.
  - intro H. apply Forall_forall. intros e He x Hx. apply H.
    apply in_flat_map. exists e. split; assumption.
  - intros H x Hx. apply in_flat_map in Hx. destruct Hx as [e [He Hx]].
    rewrite Forall_forall in H. exact (H e He x Hx).
Qed.

Lemma supplies_Add p l : supplies p (Add l) <-> Forall (supplies p) l.
Proof. apply supplies_flat_map. Qed.
Lemma supplies_Mul p l : supplies p (Mul l) <-> Forall (supplies p) l.
Proof. apply supplies_flat_map. Qed.

Lemma supplies_app p (a b : expr R) :
  (forall x, In x (vars a ++ vars b) -> lookup x p <> None) <-> supplies p a /\ supplies p b.
Proof.
  split.
  - intro H. split; intros x Hx; apply H; apply in_or_app; [left|right]; assumption.
  - intros [Ha Hb] x Hx. apply in_app_or in Hx. destruct Hx as [Hx|Hx]; [apply Ha|apply Hb]; assumption.
Qed.

Lemma supplies_Minus p a b : supplies p (Minus a b) <-> supplies p a /\ supplies p b.
Proof. apply supplies_app. Qed.
Lemma supplies_Divide p a b : supplies p (Divide a b) <-> supplies p a /\ supplies p b.
Proof. apply supplies_app. Qed.
Lemma supplies_Power p a b : supplies p (Power a b) <-> supplies p a /\ supplies p b.
Proof. apply supplies_app. Qed.
Lemma supplies_children p e : supplies p e -> Forall (supplies p) (echildren e).
Proof.
  intro S. apply supplies_flat_map. intros x Hx. apply S. rewrite vars_children.
  destruct e; try exact Hx; destruct Hx.
Qed.

Lemma supplies_unary p e : supplies p e <-> supplies p (inner_of e).
Proof. unfold supplies. rewrite (vars_unary e). reflexivity. Qed.

Lemma coordinate_supplied p x : lookup x p <> None -> coordinate p x = Val (env_of p x).
Proof.
  intro H. unfold coordinate, env_of. destruct (lookup x p) as [v|]; [reflexivity|contradiction].
Qed.

Lemma denote_ext : forall (e : expr R) (rho rho' : env),
  (forall x, In x (vars e) -> rho x = rho' x) -> denote rho e = denote rho' e.
Proof.
  intros e rho rho'.
  induction e as [c|x|l IH|l IH|a b IHa IHb|a b IHa IHb|a b IHa IHb|e U IH] using expr_ind_unary;
    intro H.
  5-7: cbn [denote]; rewrite IHa, IHb; [reflexivity| |]; intros x Hx; apply H, in_or_app; [right|left];
    assumption.
  - reflexivity.
  - apply H. left. reflexivity.
  - rewrite !denote_Add_map. f_equal. rewrite Forall_forall in IH. apply map_ext_in.
    intros a Ha. apply (IH a Ha). intros x Hx. apply H, in_flat_map. exists a. split; assumption.
  - rewrite !denote_Mul_map. f_equal. rewrite Forall_forall in IH. apply map_ext_in.
    intros a Ha. apply (IH a Ha). intros x Hx. apply H, in_flat_map. exists a. split; assumption.
  - rewrite !(denote_unary _ e), IH; [reflexivity|]. rewrite <- (vars_unary e). exact H.
Qed.
