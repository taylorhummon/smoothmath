(** The evaluation model [eval RInst] against the specification [denote]/[InDomain] (C01, C02, the
    eval parts of C14 and C17).  Two inductions: [eval_char] (under [wf] and [supplies], [eval]
    [yields] the value [denote] gives on [InDomain]) and [eval_shape] (always: a value, a
    DomainError, or CoordinateMissing; a value only when every variable is supplied,
    CoordinateMissing only when one is not).  Each step is the [bind] rule of its predicate. *)
From Coq Require Import Reals ZArith List Bool Lra Lia.
From SM Require Import Num Syntax Outcome MathFun Eval Routes RInst Denote Spec.
From SM.proofs Require Import SyntaxFacts RInstFacts.
Import ListNotations.
Open Scope R_scope.

Section EvalEq.
  Context {T : Type} (N : NumOps T) (p : point T).
  Lemma eval_Const c : eval N p (Const c) = Val c.
  Proof. reflexivity. Qed.
  Lemma eval_Var x : eval N p (Var x) = coordinate p x.
  Proof. reflexivity. Qed.
  Lemma eval_Add l :
    eval N p (Add l) = (vs <- sequence (map (eval N p) l) ;; Val (mf_add N vs)).
  Proof. reflexivity. Qed.
  Lemma eval_Mul l :
    eval N p (Mul l) = (vs <- sequence (map (eval N p) l) ;; Val (mf_multiply N vs)).
  Proof. reflexivity. Qed.
  Lemma eval_Minus a b :
    eval N p (Minus a b) = (x <- eval N p a ;; y <- eval N p b ;; Val (mf_minus N x y)).
  Proof. reflexivity. Qed.
  Lemma eval_Divide a b :
    eval N p (Divide a b) =
    (x <- eval N p a ;; y <- eval N p b ;; _ <- verify_divide N x y ;; mf_divide N x y).
  Proof. reflexivity. Qed.
  Lemma eval_Power a b :
    eval N p (Power a b) =
    (x <- eval N p a ;; y <- eval N p b ;; _ <- verify_power N x y ;; mf_power N x y).
  Proof. reflexivity. Qed.
  Lemma eval_Neg a : eval N p (Neg a) = (x <- eval N p a ;; Val (mf_negation N x)).
  Proof. reflexivity. Qed.
  Lemma eval_Recip a :
    eval N p (Recip a) = (x <- eval N p a ;; _ <- verify_reciprocal N x ;; mf_reciprocal N x).
  Proof. reflexivity. Qed.
  Lemma eval_Sin a : eval N p (Sin a) = (x <- eval N p a ;; mf_sine N x).
  Proof. reflexivity. Qed.
  Lemma eval_Cos a : eval N p (Cos a) = (x <- eval N p a ;; mf_cosine N x).
  Proof. reflexivity. Qed.
  Lemma eval_NthPow a n : eval N p (NthPow a n) = (x <- eval N p a ;; mf_nth_power N x n).
  Proof. reflexivity. Qed.
  Lemma eval_NthRoot a n :
    eval N p (NthRoot a n) =
    (x <- eval N p a ;; _ <- verify_nth_root N x n ;; mf_nth_root N x n).
  Proof. reflexivity. Qed.
  Lemma eval_Exp a b : eval N p (Exp a b) = (x <- eval N p a ;; mf_exponential N x b).
  Proof. reflexivity. Qed.
  Lemma eval_Log a b :
    eval N p (Log a b) = (x <- eval N p a ;; _ <- verify_logarithm N x ;; mf_logarithm N x b).
  Proof. reflexivity. Qed.
End EvalEq.

Lemma sequence_map_Val {A B} (f : B -> outcome A) (g : B -> A) (l : list B) :
  Forall (fun e => f e = Val (g e)) l -> sequence (map f l) = Val (map g l).
Proof.
  induction 1 as [|e r He Hr IH]; [reflexivity|].
  cbn [map sequence]. rewrite He, IH. reflexivity.
Qed.

Lemma mf_sine_R x : mf_sine RInst x = Val (sin x).
Proof. reflexivity. Qed.
Lemma mf_cosine_R x : mf_cosine RInst x = Val (cos x).
Proof. reflexivity. Qed.
Lemma mf_nth_power_R x n : mf_nth_power RInst x n = Val (x ^ Pos.to_nat n).
Proof. reflexivity. Qed.
Lemma mf_minus_R x y : mf_minus RInst x y = x - y.
Proof. reflexivity. Qed.
Lemma mf_negation_R x : mf_negation RInst x = - x.
Proof. reflexivity. Qed.

Definition eval_char_at (p : point R) (e : expr R) : Prop :=
  yields (evalR p e) (InDomain (env_of p) e) (denote (env_of p) e).

Lemma char_nary p l (k : list R -> R) e' :
  Forall (eval_char_at p) l ->
  (InDomain (env_of p) e' <-> Forall (InDomain (env_of p)) l) ->
  denote (env_of p) e' = k (map (denote (env_of p)) l) ->
  evalR p e' = (vs <- sequence (map (evalR p) l) ;; Val (k vs)) ->
  eval_char_at p e'.
Proof.
  intros F HD Hd HE. unfold eval_char_at. rewrite HE.
  eapply yields_iff;
    [eapply yields_bind; [exact (yields_sequence _ _ _ l F)|intros _; apply yields_Val]
    |tauto|intros _; symmetry; exact Hd].
Qed.

Lemma char_binary p a b (k : R -> R -> outcome R) D v e' :
  eval_char_at p a -> eval_char_at p b ->
  yields (k (denote (env_of p) a) (denote (env_of p) b)) D v ->
  evalR p e' = (x <- evalR p a ;; y <- evalR p b ;; k x y) ->
  (InDomain (env_of p) e' <-> InDomain (env_of p) a /\ InDomain (env_of p) b /\ D) ->
  denote (env_of p) e' = v ->
  eval_char_at p e'.
Proof.
  intros Ha Hb Hk HE HD Hd. unfold eval_char_at. rewrite HE.
  eapply yields_iff;
    [eapply yields_bind; [exact Ha|intros _; eapply yields_bind; [exact Hb|intros _; exact Hk]]
    |symmetry; exact HD|intros _; symmetry; exact Hd].
Qed.

Theorem eval_char : forall p e, wfR e -> supplies p e -> eval_char_at p e.
Proof.
  intros p e.
  induction e as [c|x|l IH|l IH|a b IHa IHb|a b IHa IHb|a b IHa IHb|e U IH] using expr_ind_unary;
    intros W S.
  - apply yields_Val.
  - unfold eval_char_at. rewrite eval_Var, coordinate_supplied by (apply supplies_Var, S).
    apply yields_Val.
  - apply wf_Add_Forall in W. apply supplies_Add in S.
    apply (char_nary p l (mf_add RInst));
      [rewrite Forall_forall in *; auto|apply InDomain_Add_Forall| |apply eval_Add].
    rewrite mf_add_R. apply denote_Add_map.
  - apply wf_Mul_Forall in W. apply supplies_Mul in S.
    apply (char_nary p l (mf_multiply RInst));
      [rewrite Forall_forall in *; auto|apply InDomain_Mul_Forall| |apply eval_Mul].
    rewrite mf_multiply_R. apply denote_Mul_map.
  - destruct W as [Wa Wb]. apply supplies_Minus in S. destruct S as [Sa Sb].
    apply (char_binary p a b _ _ _ _ (IHa Wa Sa) (IHb Wb Sb) (yields_Val _) (eval_Minus RInst p a b));
      [cbn [InDomain]; tauto|reflexivity].
  - destruct W as [Wa Wb]. apply supplies_Divide in S. destruct S as [Sa Sb].
    exact (char_binary p a b _ _ _ _ (IHa Wa Sa) (IHb Wb Sb) (checked_divide_R _ _)
             (eval_Divide RInst p a b) (iff_refl _) eq_refl).
  - destruct W as [Wa Wb]. apply supplies_Power in S. destruct S as [Sa Sb].
    exact (char_binary p a b _ _ _ _ (IHa Wa Sa) (IHb Wb Sb) (checked_power_R _ _)
             (eval_Power RInst p a b) (iff_refl _) eq_refl).
  - unfold eval_char_at. rewrite (eval_unary RInst p e U).
    eapply yields_iff;
      [eapply yields_bind;
         [exact (IH (wf_inner RInst e W) (proj1 (supplies_unary p e) S))
         |intros _; apply checked_unary_R, W]
      |symmetry; apply InDomain_unary|intros _; symmetry; apply denote_unary].
Qed.

Lemma eval_char_list p l :
  Forall wfR l -> Forall (supplies p) l -> Forall (eval_char_at p) l.
Proof. rewrite !Forall_forall. intros W S e He. apply eval_char; auto. Qed.

Theorem eval_total : C02_total.
Proof.
  intros p e W S. destruct (eval_char p e W S) as [[_ E]|[_ E]]; [left|right]; assumption.
Qed.

Theorem eval_sound : C01_eval_sound.
Proof. intros p e W S. exact (yields_on _ _ _ (eval_char p e W S)). Qed.

Theorem eval_domerr_iff : C02_domerr_iff.
Proof.
  intros p e W S. split.
  - intros E D. rewrite (eval_sound p e W S D) in E. discriminate.
  - exact (yields_off _ _ _ (eval_char p e W S)).
Qed.

Lemma eval_Power_inv p a b s :
  evalR p (Power a b) = Val s -> exists x y, evalR p a = Val x /\ evalR p b = Val y /\ 0 < x.
Proof.
  cbn [eval]. destruct (evalR p a) as [x| | |]; try discriminate.
  destruct (evalR p b) as [y| | |]; try discriminate. cbn [bind]. intro H.
  exists x, y. split; [reflexivity|split; [reflexivity|]].
  destruct (verify_power_R x y) as [[Hx _]|[_ E]]; [exact Hx|]. rewrite E in H. discriminate H.
Qed.

Definition shape {A} (o : outcome A) (S : Prop) : Prop :=
  ((exists r, o = Val r) /\ S) \/ o = DomErr \/ (o = CoordMissing /\ ~ S).

Lemma shape_vd A (o : outcome A) : vd o -> shape o True.
Proof. intros [H|H]; [left; split; [exact H|exact I]|right; left; exact H]. Qed.

Lemma shape_iff A (o : outcome A) S S' : shape o S -> (S <-> S') -> shape o S'.
Proof. unfold shape. tauto. Qed.

Lemma shape_bind A B (o : outcome A) (f : A -> outcome B) S S' :
  shape o S -> (forall a, shape (f a) S') -> shape (bind o f) (S /\ S').
Proof.
  intros [[[a ->] H]|[->|[-> H]]] K; cbn [bind]; [|right; left; reflexivity|right; right; tauto].
  destruct (K a) as [[E H']|[E|[E H']]]; [left|right; left|right; right]; tauto.
Qed.

Lemma shape_sequence X A (f : X -> outcome A) (S : X -> Prop) l :
  Forall (fun x => shape (f x) (S x)) l -> shape (sequence (map f l)) (Forall S l).
Proof.
  induction 1 as [|x r Hx Hr IH]; cbn [map sequence].
  - left. split; [exists []; reflexivity|constructor].
  - eapply shape_iff;
      [eapply shape_bind; [exact Hx|intro a; eapply shape_bind; [exact IH|intro; apply shape_vd, vd_Val]]
      |rewrite Forall_cons_iff; tauto].
Qed.

Definition eval_shape_at (p : point R) (e : expr R) : Prop := shape (evalR p e) (supplies p e).

Lemma shape_nary p l (k : list R -> R) e' :
  Forall (eval_shape_at p) l ->
  (supplies p e' <-> Forall (supplies p) l) ->
  evalR p e' = (vs <- sequence (map (evalR p) l) ;; Val (k vs)) ->
  eval_shape_at p e'.
Proof.
  intros HF HS HE. unfold eval_shape_at. rewrite HE.
  eapply shape_iff;
    [eapply shape_bind; [exact (shape_sequence _ _ _ _ l HF)|intro; apply shape_vd, vd_Val]|tauto].
Qed.

Lemma shape_binary p a b (k : R -> R -> outcome R) e' :
  eval_shape_at p a -> eval_shape_at p b -> (forall x y, vd (k x y)) ->
  (supplies p e' <-> supplies p a /\ supplies p b) ->
  evalR p e' = (x <- evalR p a ;; y <- evalR p b ;; k x y) ->
  eval_shape_at p e'.
Proof.
  intros Ha Hb Hk HS HE. unfold eval_shape_at. rewrite HE.
  eapply shape_iff;
    [eapply shape_bind; [exact Ha|intro x; eapply shape_bind; [exact Hb|intro y; apply shape_vd, Hk]]
    |tauto].
Qed.

Theorem eval_shape : forall p e, eval_shape_at p e.
Proof.
  intros p e.
  induction e as [c|x|l IH|l IH|a b IHa IHb|a b IHa IHb|a b IHa IHb|e U IH] using expr_ind_unary.
  - left. split; [exists c; reflexivity|apply supplies_Const].
  - unfold eval_shape_at, shape. rewrite eval_Var, supplies_Var. unfold coordinate.
    destruct (lookup x p) as [v|].
    + left. split; [exists v; reflexivity|discriminate].
    + right. right. split; [reflexivity|]. intro H. apply H. reflexivity.
  - exact (shape_nary p l (mf_add RInst) _ IH (supplies_Add p l) (eval_Add RInst p l)).
  - exact (shape_nary p l (mf_multiply RInst) _ IH (supplies_Mul p l) (eval_Mul RInst p l)).
  - exact (shape_binary p a b (fun x y => Val (mf_minus RInst x y)) _ IHa IHb
             (fun x y => vd_Val _) (supplies_Minus p a b) (eval_Minus RInst p a b)).
  - exact (shape_binary p a b _ _ IHa IHb (fun x y => yields_vd _ _ _ (checked_divide_R x y))
             (supplies_Divide p a b) (eval_Divide RInst p a b)).
  - exact (shape_binary p a b _ _ IHa IHb (fun x y => yields_vd _ _ _ (checked_power_R x y))
             (supplies_Power p a b) (eval_Power RInst p a b)).
  - unfold eval_shape_at. rewrite (eval_unary RInst p e U).
    eapply shape_iff;
      [eapply shape_bind; [exact IH|intro x; apply shape_vd, vd_checked_unary]
      |rewrite (supplies_unary p e); tauto].
Qed.

(** the eval part of C14_no_missing *)
Lemma eval_no_missing : forall p e, supplies p e -> evalR p e <> CoordMissing.
Proof.
  intros p e S E. destruct (eval_shape p e) as [[[r Er] _]|[Er|[_ NS]]].
  - rewrite Er in E. discriminate.
  - rewrite Er in E. discriminate.
  - contradiction.
Qed.

(** the eval part of C17_no_pyerr; [wfR] is not needed *)
Lemma eval_no_pyerr : forall p e k, wfR e -> evalR p e <> PyErr k.
Proof.
  intros p e k _ E. destruct (eval_shape p e) as [[[r Er] _]|[Er|[Er _]]];
    rewrite Er in E; discriminate.
Qed.

Lemma eval_Val_supplies p e r : evalR p e = Val r -> supplies p e.
Proof.
  intro E. destruct (eval_shape p e) as [[_ S]|[Er|[Er _]]]; [assumption| |];
    rewrite Er in E; discriminate.
Qed.

Theorem eval_missing_not_val : C14_missing_not_val.
Proof. intros p e NS r E. apply NS. exact (eval_Val_supplies p e r E). Qed.

(** ** Expression.at(number) *)
Lemma In_var_names {T} (e : expr T) x : In x (vars e) <-> In x (var_names e).
Proof. unfold var_names. symmetry. apply nodup_In. Qed.

Theorem at_number_sound : C01_at_number.
Proof.
  intros e x Hlen. unfold at_number, the_single_variable_name.
  destruct (var_names e) as [|v [|w r]] eqn:E.
  - exists whatever. split; [reflexivity|]. intros y Hy. exfalso.
    apply In_var_names in Hy. rewrite E in Hy. contradiction.
  - exists v. split; [reflexivity|]. intros y Hy.
    apply In_var_names in Hy. rewrite E in Hy. destruct Hy as [<-|[]].
    cbn [lookup]. unfold name_eqb. rewrite Pos.eqb_refl. discriminate.
  - cbn [length] in Hlen. lia.
Qed.

Theorem number_accepted : C14_number_accepted.
Proof.
  intros e x. unfold at_number, derivative_variable, the_single_variable_name.
  destruct (var_names e) as [|v [|w r]]; cbn [length]; split; split; intro H;
    try lia; try discriminate; try (exfalso; apply H; reflexivity).
Qed.

Lemma Reqb_refl x : Reqb x x = true.
Proof. apply Reqb_true; reflexivity. Qed.

Section Sequence.
  Context {A B : Type}.

  Lemma sequence_cons (o : outcome A) (r : list (outcome A)) :
    sequence (o :: r) = (x <- o ;; xs <- sequence r ;; Val (x :: xs)).
  Proof. reflexivity. Qed.

  Lemma sequence_Val_inv (l : list (outcome A)) (vs : list A) :
    sequence l = Val vs -> l = map Val vs.
  Proof.
    revert vs. induction l as [|o r IH]; intros vs H.
    - cbn in H. injection H as <-. reflexivity.
    - cbn [sequence] in H. destruct o as [a| | |k]; cbn [bind] in H; try discriminate.
      destruct (sequence r) as [xs| | |k]; cbn [bind] in H; try discriminate.
      injection H as <-. cbn [map]. rewrite (IH xs eq_refl). reflexivity.
  Qed.

  Lemma sequence_map_DomErr (f : B -> outcome A) (g : B -> A) (l1 : list B) (e : B) (l2 : list B) :
    Forall (fun e => f e = Val (g e)) l1 -> f e = DomErr ->
    sequence (map f (l1 ++ e :: l2)) = DomErr.
  Proof.
    induction 1 as [|a r Ha Hr IH]; intro He.
    - cbn [app map sequence]. rewrite He. reflexivity.
    - cbn [app map sequence]. rewrite Ha, (IH He). reflexivity.
  Qed.

  Lemma sequence_map_fail (f : B -> outcome A) (l : list B) :
    (exists vs, sequence (map f l) = Val vs) \/
    (exists e, In e l /\
       match f e with
       | Val _ => False
       | DomErr => sequence (map f l) = DomErr
       | CoordMissing => sequence (map f l) = CoordMissing
       | PyErr k => sequence (map f l) = PyErr k
       end).
  Proof.
    induction l as [|a r IH]; [left; exists []; reflexivity|].
    cbn [map sequence]. destruct (f a) as [x| | |k] eqn:E.
    2-4: right; exists a; (split; [left; reflexivity|]); rewrite E; reflexivity.
    cbn [bind]. destruct IH as [[vs Hvs]|[e [Hin He]]].
    - left. exists (x :: vs). rewrite Hvs. reflexivity.
    - right. exists e. split; [right; assumption|].
      destruct (f e) as [y| | |k']; [contradiction| | |]; rewrite He; reflexivity.
  Qed.
End Sequence.

Lemma InDomain_ext_iff : forall (e : expr R) (rho rho' : env),
  (forall x, In x (vars e) -> rho x = rho' x) -> (InDomain rho e <-> InDomain rho' e).
Proof.
  intros e rho rho'.
  induction e as [c|x|l IH|l IH|a b IHa IHb|a b IHa IHb|a b IHa IHb|e U IH] using expr_ind_unary;
    intro H.
  1, 2: reflexivity.
  1, 2: rewrite ?InDomain_Add_Forall, ?InDomain_Mul_Forall, !Forall_forall; cbn [vars] in H;
    rewrite Forall_forall in IH;
    split; intros D a Ha; apply (IH a Ha); try apply D; try exact Ha;
    intros x Hx; apply H, in_flat_map; exists a; split; assumption.
  1-3: cbn [vars] in H;
    assert (Ha : forall x, In x (vars a) -> rho x = rho' x)
      by (intros; apply H, in_or_app; left; assumption);
    assert (Hb : forall x, In x (vars b) -> rho x = rho' x)
      by (intros; apply H, in_or_app; right; assumption);
    cbn [InDomain]; rewrite (IHa Ha), (IHb Hb), ?(denote_ext a rho rho' Ha), ?(denote_ext b rho rho' Hb);
    reflexivity.
  rewrite (vars_unary e) in H.
  rewrite !(InDomain_unary _ e), (IH H), (denote_ext _ rho rho' H). reflexivity.
Qed.

Lemma InDomain_ext : forall (e : expr R) (rho rho' : env),
  (forall x, In x (vars e) -> rho x = rho' x) -> InDomain rho e -> InDomain rho' e.
Proof. intros e rho rho' H. exact (proj1 (InDomain_ext_iff e rho rho' H)). Qed.

(* Every node-local condition is decidable by [Req_EM_T]/[Rlt_dec], which rest on the classical
   axioms of the reals anyway; [classic] is used directly. *)
Lemma InDomain_dec : forall rho (e : expr R), InDomain rho e \/ ~ InDomain rho e.
Proof. intros rho e. apply Classical_Prop.classic. Qed.

Lemma eval_sequence_Val p (l : list (expr R)) :
  Forall wfR l -> Forall (supplies p) l -> Forall (InDomain (env_of p)) l ->
  sequence (map (evalR p) l) = Val (map (denote (env_of p)) l).
Proof. intros W S. exact (yields_on _ _ _ (yields_sequence _ _ _ l (eval_char_list p l W S))). Qed.

Lemma eval_sequence_DomErr p (l : list (expr R)) :
  Forall wfR l -> Forall (supplies p) l -> ~ Forall (InDomain (env_of p)) l ->
  sequence (map (evalR p) l) = DomErr.
Proof. intros W S. exact (yields_off _ _ _ (yields_sequence _ _ _ l (eval_char_list p l W S))). Qed.

Lemma eval_sequence_Val_inv p (l : list (expr R)) vs :
  Forall wfR l -> sequence (map (evalR p) l) = Val vs ->
  Forall (supplies p) l /\ Forall (InDomain (env_of p)) l /\ vs = map (denote (env_of p)) l.
Proof.
  intros W E.
  assert (S : Forall (supplies p) l).
  { apply Forall_forall. intros e He. apply (in_map (evalR p)) in He.
    rewrite (sequence_Val_inv _ _ E) in He. apply in_map_iff in He. destruct He as [v [Hv _]].
    exact (eval_Val_supplies p e v (eq_sym Hv)). }
  split; [assumption|].
  destruct (yields_sequence _ _ _ l (eval_char_list p l W S)) as [[D E']|[_ E']]; rewrite E' in E;
    [|discriminate].
  injection E as <-. split; [assumption|reflexivity].
Qed.

(** ** Non-vacuity: the premises hold on non-trivial trees, and each outcome occurs *)
Local Notation ex_e :=
  (Divide (Mul [Var 1%positive; Const 2; Log (Exp (Var 1%positive) 2) 10])
          (NthRoot (Add [Var 2%positive; Const 1]) 2)).
Local Notation ex_p := [(1%positive, 3); (2%positive, 4)].

Example eval_sound_nonvacuous :
  wfR ex_e /\ supplies ex_p ex_e /\ InDomain (env_of ex_p) ex_e.
Proof.
  split; [|split].
  - cbn [wf fold_right].
    change (nltb RInst (n0 RInst) ?b) with (Rltb 0 b).
    change (neqb RInst ?b (n1 RInst)) with (Reqb b 1).
    repeat split; try (apply Rltb_true; lra). apply Reqb_false. lra.
  - intros y Hy. cbn in Hy.
    destruct Hy as [<-|[<-|[<-|[]]]]; cbn; discriminate.
  - cbn [InDomain fold_right denote]. unfold env_of. cbn [lookup name_eqb Pos.eqb].
    split; [|split].
    + repeat split. apply Rpower_pos.
    + split; [repeat split|]. right. split; [lra|intros _; lra].
    + apply root_nonzero. lra.
Qed.

Example eval_domerr_nonvacuous :
  wfR (Recip (Var 1%positive)) /\ supplies [(1%positive, 0)] (Recip (Var 1%positive)) /\
  ~ InDomain (env_of [(1%positive, 0)]) (Recip (Var 1%positive)) /\
  evalR [(1%positive, 0)] (Recip (Var 1%positive)) = DomErr.
Proof.
  assert (W : wfR (Recip (Var 1%positive))) by exact I.
  assert (S : supplies [(1%positive, 0)] (Recip (Var 1%positive))).
  { intros y [<-|[]]. cbn. discriminate. }
  assert (D : ~ InDomain (env_of [(1%positive, 0)]) (Recip (Var 1%positive))).
  { cbn [InDomain denote]. unfold env_of. cbn [lookup name_eqb Pos.eqb]. intros [_ H].
    apply H. reflexivity. }
  repeat split; try assumption. exact (yields_off _ _ _ (eval_char _ _ W S) D).
Qed.

Example eval_missing_nonvacuous :
  ~ supplies [(1%positive, 0)] (Add [Var 1%positive; Var 2%positive]) /\
  evalR [(1%positive, 0)] (Add [Var 1%positive; Var 2%positive]) = CoordMissing.
Proof.
  split; [|reflexivity].
  intro S. apply (S 2%positive); [right; left; reflexivity|reflexivity].
Qed.

Example at_number_nonvacuous :
  (List.length (var_names (Mul [Var 5%positive; Sin (Var 5%positive)] : expr R)) <= 1)%nat.
Proof. cbn. lia. Qed.

Print Assumptions eval_total.
Print Assumptions eval_sound.
Print Assumptions eval_domerr_iff.
Print Assumptions at_number_sound.
Print Assumptions eval_missing_not_val.
Print Assumptions number_accepted.
Print Assumptions eval_no_missing.
Print Assumptions eval_no_pyerr.
