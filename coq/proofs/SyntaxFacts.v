(** Facts about trees, association lists, the traversals and the rewriting driver that hold for
    every number interface.  [echildren]/[erebuild] view all constructors alike: an induction by
    [expr_ind_ch] has one case.  Where the binary and n-ary nodes need cases of their own,
    [expr_ind_unary] still makes one case of the eight unary classes. *)
From Coq Require Import ZArith List Bool Permutation.
From SM Require Import Num Syntax Outcome MathFun Eval Forward Reverse Synth Rules Driver.
Import ListNotations.

Lemma name_eqb_refl (x : name) : name_eqb x x = true.
Proof. apply Pos.eqb_refl. Qed.

Lemma name_eqb_eq (x y : name) : name_eqb x y = true <-> x = y.
Proof. apply Pos.eqb_eq. Qed.

Lemma name_eqb_neq (x y : name) : name_eqb x y = false <-> x <> y.
Proof. apply Pos.eqb_neq. Qed.

Lemma name_eqb_sym (x y : name) : name_eqb x y = name_eqb y x.
Proof. apply Pos.eqb_sym. Qed.

Lemma lookup_tabulate_in {T} (f : name -> T) (v : name) (enum : list name) :
  In v enum -> lookup v (map (fun x => (x, f x)) enum) = Some (f v).
Proof.
  induction enum as [|a r IH]; intro H; [destruct H|].
  cbn [map lookup]. destruct (name_eqb v a) eqn:E.
  - apply name_eqb_eq in E. subst a. reflexivity.
  - apply name_eqb_neq in E. destruct H as [H|H]; [congruence|]. apply IH, H.
Qed.

Lemma lookup_tabulate_notin {T} (f : name -> T) (v : name) (enum : list name) :
  ~ In v enum -> lookup v (map (fun x => (x, f x)) enum) = None.
Proof.
  induction enum as [|a r IH]; intro H; [reflexivity|].
  cbn [map lookup]. destruct (name_eqb v a) eqn:E.
  - apply name_eqb_eq in E. subst a. exfalso. apply H. left. reflexivity.
  - apply IH. intro K. apply H. right. exact K.
Qed.

Lemma lookup_tabulate_perm {T} (f : name -> T) (v : name) (enum enum' : list name) :
  Permutation enum enum' ->
  lookup v (map (fun x => (x, f x)) enum) = lookup v (map (fun x => (x, f x)) enum').
Proof.
  intro HP. destruct (in_dec Pos.eq_dec v enum) as [I|I].
  - rewrite (lookup_tabulate_in f v enum I).
    rewrite (lookup_tabulate_in f v enum' (Permutation_in _ HP I)). reflexivity.
  - rewrite (lookup_tabulate_notin f v enum I).
    rewrite (lookup_tabulate_notin f v enum'); [reflexivity|].
    intro K. apply I. exact (Permutation_in _ (Permutation_sym HP) K).
Qed.

Lemma lookup_some_in {T} (x : name) (v : T) (p : point T) :
  lookup x p = Some v -> In (x, v) p.
Proof.
  induction p as [|[y w] r IH]; cbn [lookup]; intro H; [discriminate|].
  destruct (name_eqb x y) eqn:E.
  - apply name_eqb_eq in E. injection H as ->. subst y. left. reflexivity.
  - right. apply IH, H.
Qed.

Lemma in_lookup_some {T} (x : name) (v : T) (p : point T) :
  NoDup (map fst p) -> In (x, v) p -> lookup x p = Some v.
Proof.
  induction p as [|[y w] r IH]; cbn [map fst lookup]; intros ND H; [destruct H|].
  inversion ND as [|? ? Hnin ND']; subst.
  destruct H as [H|H].
  - injection H as -> ->. rewrite name_eqb_refl. reflexivity.
  - destruct (name_eqb x y) eqn:E.
    + apply name_eqb_eq in E. subst y. exfalso. apply Hnin.
      change x with (fst (x, v)). apply in_map, H.
    + apply IH; assumption.
Qed.

Lemma lookup_perm {T} (p p' : point T) :
  NoDup (map fst p) -> Permutation p p' -> forall x, lookup x p = lookup x p'.
Proof.
  intros ND HP x.
  assert (ND' : NoDup (map fst p')).
  { eapply Permutation_NoDup; [|exact ND]. apply Permutation_map, HP. }
  destruct (lookup x p) as [v|] eqn:E1.
  - symmetry. apply in_lookup_some; [exact ND'|].
    apply (Permutation_in _ HP). apply lookup_some_in, E1.
  - destruct (lookup x p') as [v|] eqn:E2; [|reflexivity].
    apply lookup_some_in in E2. apply (Permutation_in _ (Permutation_sym HP)) in E2.
    apply (in_lookup_some _ _ _ ND) in E2. congruence.
Qed.

(* [slookup] and [lookup] differ in where the type parameter is bound; [sacc_set] is [acc_set]
   at expressions up to conversion. *)
Lemma slookup_lookup {T} (x : name) (acc : list (name * expr T)) : slookup x acc = lookup x acc.
Proof. induction acc as [|[y w] r IH]; cbn [slookup lookup]; [|rewrite IH]; reflexivity. Qed.

Lemma lookup_acc_set {T} (acc : point T) x c y :
  lookup y (acc_set acc x c) = if name_eqb x y then Some c else lookup y acc.
Proof.
  induction acc as [|[z w] r IH]; cbn [acc_set lookup].
  - rewrite (name_eqb_sym y x). reflexivity.
  - destruct (name_eqb x z) eqn:Exz; cbn [lookup].
    + apply name_eqb_eq in Exz. subst z. rewrite (name_eqb_sym y x).
      destruct (name_eqb x y); reflexivity.
    + rewrite IH. destruct (name_eqb x y) eqn:Exy; [|reflexivity].
      apply name_eqb_eq in Exy. subst y. rewrite Exz. reflexivity.
Qed.

Lemma fold_and_Forall {A} (P : A -> Prop) (l : list A) :
  fold_right (fun x acc => P x /\ acc) True l <-> Forall P l.
Proof.
  induction l as [|a r IH]; cbn [fold_right].
  - split; intro; [constructor|exact I].
  - rewrite IH. split.
    + intros [Ha Hr]. constructor; assumption.
    + intro H. inversion H; subst. split; assumption.
Qed.

Lemma wf_Add_Forall {T} (N : NumOps T) l : wf N (Add l) <-> Forall (wf N) l.
Proof. apply fold_and_Forall. Qed.

Lemma wf_Mul_Forall {T} (N : NumOps T) l : wf N (Mul l) <-> Forall (wf N) l.
Proof. apply fold_and_Forall. Qed.

Section Trees.
  Context {T : Type}.
  Notation E := (expr T).

  Definition echildren (e : E) : list E :=
    match e with
    | Const _ | Var _ => []
    | Add l | Mul l => l
    | Minus a b | Divide a b | Power a b => [a; b]
    | Neg a | Recip a | Sin a | Cos a | NthPow a _ | NthRoot a _ | Exp a _ | Log a _ => [a]
    end.

  Definition erebuild (e : E) (l : list E) : E :=
    match e, l with
    | Add _, _ => Add l
    | Mul _, _ => Mul l
    | Minus _ _, [a; b] => Minus a b
    | Divide _ _, [a; b] => Divide a b
    | Power _ _, [a; b] => Power a b
    | Neg _, [a] => Neg a
    | Recip _, [a] => Recip a
    | Sin _, [a] => Sin a
    | Cos _, [a] => Cos a
    | NthPow _ n, [a] => NthPow a n
    | NthRoot _ n, [a] => NthRoot a n
    | Exp _ b, [a] => Exp a b
    | Log _ b, [a] => Log a b
    | _, _ => e
    end.

  Lemma erebuild_same (e : E) : erebuild e (echildren e) = e.
  Proof. destruct e; reflexivity. Qed.

  Lemma expr_ind_ch (P : E -> Prop) :
    (forall e, Forall P (echildren e) -> P e) -> forall e, P e.
  Proof.
    intros H e. induction e using expr_ind'; apply H; simpl; auto.
  Qed.

  Lemma vars_children (e : E) :
    vars e = match e with Var x => [x] | _ => flat_map vars (echildren e) end.
  Proof. destruct e; cbn [vars echildren flat_map]; rewrite ?app_nil_r; reflexivity. Qed.

  Definition is_unary (e : E) : bool :=
    match e with
    | Neg _ | Recip _ | Sin _ | Cos _ | NthPow _ _ | NthRoot _ _ | Exp _ _ | Log _ _ => true
    | _ => false
    end.

  Lemma vars_unary (e : E) : vars e = vars (inner_of e).
  Proof. destruct e; reflexivity. Qed.

  Lemma echildren_unary (e : E) : is_unary e = true -> echildren e = [inner_of e].
  Proof. destruct e; intro H; try discriminate H; reflexivity. Qed.

  Lemma expr_ind_unary (P : E -> Prop) :
    (forall c, P (Const c)) -> (forall x, P (Var x)) ->
    (forall l, Forall P l -> P (Add l)) -> (forall l, Forall P l -> P (Mul l)) ->
    (forall a b, P a -> P b -> P (Minus a b)) ->
    (forall a b, P a -> P b -> P (Divide a b)) ->
    (forall a b, P a -> P b -> P (Power a b)) ->
    (forall e, is_unary e = true -> P (inner_of e) -> P e) ->
    forall e, P e.
  Proof.
    intros HC HV HA HM HMi HD HP HU e. induction e using expr_ind'; auto; apply HU; auto.
  Qed.

  Lemma split_first_spec (f : E -> bool) l b h a :
    split_first f l = Some (b, h, a) -> l = b ++ h :: a /\ f h = true.
  Proof.
    revert b; induction l as [|x r IH]; intros b H; cbn [split_first] in H; [discriminate|].
    destruct (f x) eqn:Ex.
    - inversion H; subst. split; [reflexivity | exact Ex].
    - destruct (split_first f r) as [[[b' h'] a']|]; [|discriminate].
      inversion H; subst. destruct (IH b' eq_refl) as [-> Hh]. split; [reflexivity | exact Hh].
  Qed.

  Lemma var_free_vars (e : E) : var_free e = true -> vars e = [].
  Proof.
    induction e as [c|x|l IH|l IH|a b IHa IHb|a b IHa IHb|a b IHa IHb|e U IH] using expr_ind_unary;
      cbn [var_free vars]; intro H.
    5-7: apply andb_prop in H; destruct H as [Ha Hb]; rewrite IHa, IHb by assumption; reflexivity.
    3-4: induction IH as [|a r Ha Hr IHr]; cbn [forallb flat_map] in *; [reflexivity|];
      apply andb_prop in H; destruct H as [H1 H2]; rewrite Ha, IHr by assumption; reflexivity.
    - reflexivity.
    - discriminate H.
    - rewrite (vars_unary e). apply IH. destruct e; try discriminate U; exact H.
  Qed.
End Trees.

Lemma wf_inner {T} (N : NumOps T) e : wf N e -> wf N (inner_of e).
Proof. destruct e; cbn [wf inner_of]; tauto. Qed.

Lemma wf_children {T} (N : NumOps T) e : wf N e -> Forall (wf N) (echildren e).
Proof.
  destruct e; cbn [wf echildren]; intro W; try (apply fold_and_Forall, W);
    repeat apply Forall_cons; try apply Forall_nil; tauto.
Qed.

Section Traversals.
  Context {T : Type} (N : NumOps T).
  Notation E := (expr T).

  (* _value_formula of the unary classes, on the inner value.  Its siblings [unary_verify] and
     [unary_formula] are functions of the model (Forward.v). *)
  Definition unary_value (e : E) (iv : T) : outcome T :=
    match e with
    | Neg _ => Val (mf_negation N iv)
    | Recip _ => mf_reciprocal N iv
    | Sin _ => mf_sine N iv
    | Cos _ => mf_cosine N iv
    | NthPow _ n => mf_nth_power N iv n
    | NthRoot _ n => mf_nth_root N iv n
    | Exp _ b => mf_exponential N iv b
    | Log _ b => mf_logarithm N iv b
    | _ => Val iv
    end.

  Lemma eval_unary p (e : E) : is_unary e = true ->
    eval N p e = (iv <- eval N p (inner_of e) ;; _ <- unary_verify N e iv ;; unary_value e iv).
  Proof. destruct e; intro H; try discriminate H; reflexivity. Qed.

  Lemma fwd_unary v p (e : E) : is_unary e = true ->
    fwd N v p e =
    (iv <- eval N p (inner_of e) ;; _ <- unary_verify N e iv ;;
     d <- fwd N v p (inner_of e) ;; unary_formula N p e d).
  Proof. destruct e; intro H; try discriminate H; reflexivity. Qed.

  Lemma rev_unary p (e : E) m acc : is_unary e = true ->
    rev N p e m acc =
    (iv <- eval N p (inner_of e) ;; _ <- unary_verify N e iv ;;
     m' <- unary_formula N p e m ;; rev N p (inner_of e) m' acc).
  Proof. destruct e; intro H; try discriminate H; reflexivity. Qed.

  Fixpoint rev_each p (mult : nat -> T) (i : nat) (l : list E) (acc : accum) : outcome accum :=
    match l with
    | [] => Val acc
    | x :: r => acc' <- rev N p x (mult i) acc ;; rev_each p mult (S i) r acc'
    end.

  Lemma rev_Add p l m acc : rev N p (Add l) m acc = rev_each p (fun _ => m) 0 l acc.
  Proof.
    cbn [rev]. generalize 0%nat. revert acc.
    induction l as [|x r IH]; intros acc i; cbn [rev_each]; [reflexivity|].
    destruct (rev N p x m acc); cbn [bind]; auto.
  Qed.

  Lemma rev_Mul p l m acc :
    rev N p (Mul l) m acc =
    (vs <- eval_list N p l ;;
     rev_each p (fun i => mf_multiply N (m :: remove_nth i vs)) 0 l acc).
  Proof.
    cbn [rev]. destruct (eval_list N p l) as [vs| | |k]; cbn [bind]; try reflexivity.
    generalize 0%nat. revert acc.
    induction l as [|x r IH]; intros acc i; cbn [rev_each]; [reflexivity|].
    destruct (rev N p x _ acc); cbn [bind]; auto.
  Qed.

  Lemma rev_each_ind (Q : outcome (@accum T) -> Prop) p mult l :
    (forall acc, Q (Val acc)) ->
    (forall o f, Q o -> (forall a, o = Val a -> Q (f a)) -> Q (bind o f)) ->
    Forall (fun x => forall m acc, Q (rev N p x m acc)) l ->
    forall i acc, Q (rev_each p mult i l acc).
  Proof.
    intros HV HB. induction 1 as [|x r Hx Hr IH]; intros i acc; cbn [rev_each]; [apply HV|].
    apply HB; [apply Hx|]. intros acc' _. apply IH.
  Qed.
End Traversals.

(* These unary equations need no [is_unary]: on the other nodes [inner_of] and the formula are
   the identity. *)
Section SynthTraversals.
  Context {T : Type} (N : NumOps T).
  Implicit Types (e m : expr T) (l : list (expr T)) (acc : @saccum T).

  Lemma synth_fwd_unary v e :
    synth_fwd N v e = synth_unary_formula N e (synth_fwd N v (inner_of e)).
  Proof. destruct e; reflexivity. Qed.

  Lemma synth_rev_unary e m acc :
    synth_rev N e m acc = synth_rev N (inner_of e) (synth_unary_formula N e m) acc.
  Proof. destruct e; reflexivity. Qed.

  Fixpoint synth_rev_seq (ms : nat -> expr T) (i : nat) l acc : saccum :=
    match l with
    | [] => acc
    | x :: r => synth_rev_seq ms (S i) r (synth_rev N x (ms i) acc)
    end.

  Lemma synth_rev_Add l m acc : synth_rev N (Add l) m acc = synth_rev_seq (fun _ => m) 0 l acc.
  Proof.
    cbn [synth_rev]. generalize 0%nat. revert acc.
    induction l as [|x r IH]; intros acc i; [reflexivity | apply IH].
  Qed.

  Lemma synth_rev_Mul l m acc :
    synth_rev N (Mul l) m acc = synth_rev_seq (fun i => Mul (m :: remove_nth i l)) 0 l acc.
  Proof.
    set (ms := fun i => Mul (m :: remove_nth i l)). cbn [synth_rev].
    (* the list walked through, not the one the multipliers are cut from *)
    generalize 0%nat, acc, l at 2 3.
    intros i acc' r. revert i acc'. induction r as [|x r IH]; intros i acc'; [reflexivity | apply IH].
  Qed.
End SynthTraversals.

Section Step.
  Context {T : Type} (N : NumOps T).
  Notation E := (expr T).

  (* the local [step_list] of [Driver.step_named] *)
  Fixpoint step_list (l : list E) : option (@label T * list E) :=
    match l with
    | [] => None
    | x :: r =>
        match step_named N x with
        | Some (lab, x') => Some (lab, x' :: r)
        | None =>
            match step_list r with
            | Some (lab, r') => Some (lab, x :: r')
            | None => None
            end
        end
    end.

  Lemma step_named_unfold (e : E) :
    step_named N e =
    match consolidate N e with
    | Some c => Some (LConsolidate e, c)
    | None =>
        match step_list (echildren e) with
        | Some (lab, l') => Some (lab, erebuild e l')
        | None => rules_at N e
        end
    end.
  Proof.
    destruct e; try reflexivity;
      cbn [step_named echildren step_list erebuild]; destruct (consolidate N _); try reflexivity;
      repeat match goal with
        | |- context [step_named N ?a] => destruct (step_named N a) as [[? ?]|]; try reflexivity
        end.
  Qed.
End Step.
