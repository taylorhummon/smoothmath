(** Real analysis about the specification ([denote], [InDomain], [true_partial]): a rule
    [tp_<constructor>] builds the true partial of a node from those of its operands.  The eight
    one-operand classes share the rule [tp_unary], "local factor times the operand's partial":
    [unary_fac] is the table of the factors, the derivatives of [unary_den] ([unary_fac_derive]).
    The n-ary product rule [tp_mul] is stated in the shape in which Forward.v computes it. *)
From Coq Require Import Reals ZArith List Bool Lia Lra.
From Coquelicot Require Import Rcomplements Hierarchy Derive ElemFct.
From SM Require Import Num Syntax Eval Forward Denote Spec.
From SM.proofs Require Import SyntaxFacts RInstFacts.
Import ListNotations.
Open Scope R_scope.

Lemma Rd_const (c x : R) : is_derive (fun _ : R => c) x 0.
Proof. exact (is_derive_const (V:=R_NormedModule) c x). Qed.

Lemma Rd_id (x : R) : is_derive (fun t : R => t) x 1.
Proof. exact (is_derive_id (K:=R_AbsRing) x). Qed.

Lemma Rd_val (f : R -> R) (x d d' : R) : is_derive f x d -> d = d' -> is_derive f x d'.
Proof. intros H E; subst; exact H. Qed.

Lemma Rd_opp (f : R -> R) (x df : R) :
  is_derive f x df -> is_derive (fun t => - f t) x (- df).
Proof. intros Hf. exact (is_derive_opp (V:=R_NormedModule) f x df Hf). Qed.

Lemma Rd_mult (f g : R -> R) (x df dg : R) :
  is_derive f x df -> is_derive g x dg ->
  is_derive (fun t => f t * g t) x (df * g x + f x * dg).
Proof.
  intros Hf Hg.
  exact (is_derive_mult (K:=R_AbsRing) f g x df dg Hf Hg Rmult_comm).
Qed.

Lemma Rd_comp (f g : R -> R) (x df dg : R) :
  is_derive f (g x) df -> is_derive g x dg -> is_derive (fun t => f (g t)) x (df * dg).
Proof.
  intros Hf Hg.
  apply Rd_val with (dg * df); [|apply Rmult_comm].
  exact (is_derive_comp (V:=R_NormedModule) f g x df dg Hf Hg).
Qed.

Lemma Rd_Rpower_exponent (b x : R) :
  is_derive (fun t => Rpower b t) x (ln b * Rpower b x).
Proof.
  unfold Rpower.
  apply Rd_val with (exp (x * ln b) * (1 * ln b + x * 0)); [|ring].
  apply (Rd_comp exp (fun t => t * ln b)); [apply is_derive_exp|].
  apply (Rd_mult (fun t => t) (fun _ => ln b)); [apply Rd_id | apply Rd_const].
Qed.

Lemma Rd_Rpower_base (c x : R) :
  0 < x -> is_derive (fun t => Rpower t c) x (c * / x * Rpower x c).
Proof.
  intro Hx. unfold Rpower.
  apply Rd_val with (exp (c * ln x) * (c * / x)); [|ring].
  apply (Rd_comp exp (fun t => c * ln t)); [apply is_derive_exp|].
  apply is_derive_scal. apply is_derive_ln; exact Hx.
Qed.

Lemma Rd_Rpower (f g : R -> R) (x df dg : R) :
  0 < f x -> is_derive f x df -> is_derive g x dg ->
  is_derive (fun t => Rpower (f t) (g t)) x
    (g x * Rpower (f x) (g x - 1) * df + ln (f x) * Rpower (f x) (g x) * dg).
Proof.
  intros Hx Hf Hg.
  assert (E : Rpower (f x) (g x - 1) = Rpower (f x) (g x) * / f x).
  { unfold Rminus. rewrite Rpower_plus, Rpower_Ropp, Rpower_1 by exact Hx. reflexivity. }
  rewrite E. unfold Rpower.
  apply Rd_val with (exp (g x * ln (f x)) * (dg * ln (f x) + g x * (/ f x * df))); [|ring].
  apply (Rd_comp exp (fun t => g t * ln (f t))); [apply is_derive_exp|].
  apply (Rd_mult g (fun t => ln (f t))); [exact Hg|].
  apply (Rd_comp ln f); [apply is_derive_ln; exact Hx | exact Hf].
Qed.

Lemma odd_pred_even (n : positive) :
  Z.even (Zpos n) = false -> exists k, (Pos.to_nat n - 1 = 2 * k)%nat.
Proof.
  destruct n as [p|p|]; intro H; [ | simpl in H; discriminate | ].
  - exists (Pos.to_nat p). rewrite Pos2Nat.inj_xI. lia.
  - exists 0%nat. reflexivity.
Qed.

Lemma pow_opp_even (s : R) (k : nat) : (- s) ^ (2 * k) = s ^ (2 * k).
Proof. rewrite !pow_mult. f_equal. ring. Qed.

Lemma pow_split_pred (r : R) (n : positive) :
  r * r ^ (Pos.to_nat n - 1) = r ^ Pos.to_nat n.
Proof.
  pose proof (Pos2Nat.is_pos n) as Hn.
  replace (Pos.to_nat n) with (S (Pos.to_nat n - 1)) at 2 by lia.
  reflexivity.
Qed.

Lemma is_derive_root_pos (n : positive) (x : R) :
  0 < x -> is_derive (root n) x (/ (IZR (Zpos n) * root n x ^ (Pos.to_nat n - 1))).
Proof.
  intro Hpos.
  assert (Hn : IZR (Zpos n) <> 0) by (apply IZR_neq; discriminate).
  apply is_derive_ext_loc with (fun t => Rpower t (/ IZR (Zpos n))).
  { apply (locally_open (fun u => 0 < u)); [apply open_gt | | exact Hpos].
    intros t Ht. symmetry; apply root_of_pos; exact Ht. }
  apply Rd_val with (/ IZR (Zpos n) * / x * Rpower x (/ IZR (Zpos n)));
    [apply Rd_Rpower_base; exact Hpos|].
  rewrite <- (root_of_pos n x Hpos).
  (* x = r * r ^ (n - 1) for r = root n x *)
  pose proof (root_pos_pow n x Hpos) as Hpow. rewrite <- pow_split_pred in Hpow.
  pose proof (root_pos n x Hpos) as Hr.
  set (r := root n x) in *. set (m := (Pos.to_nat n - 1)%nat) in *.
  assert (Hrm : r ^ m <> 0) by (apply pow_nonzero; lra).
  rewrite <- Hpow at 1. field. repeat split; try assumption; lra.
Qed.

Lemma is_derive_root (n : positive) (x : R) :
  root_dom n x -> is_derive (root n) x (/ (IZR (Zpos n) * root n x ^ (Pos.to_nat n - 1))).
Proof.
  intros [->|[H0 Hev]].
  - apply is_derive_ext with (fun t => t); [intro t; symmetry; apply root_1|].
    apply Rd_val with 1; [apply Rd_id|].
    change (Pos.to_nat 1 - 1)%nat with 0%nat. cbn [pow]. field.
  - destruct (Rlt_dec 0 x) as [Hpos|Hnpos]; [apply is_derive_root_pos, Hpos|].
    assert (Hneg : x < 0) by lra.
    (* n is odd: root n t = - root n (- t) for t < 0, and n - 1 is even *)
    destruct (odd_pred_even n) as [k Hk].
    { destruct (Z.even (Zpos n)); [specialize (Hev eq_refl); lra | reflexivity]. }
    assert (E : forall t, t < 0 -> root n t = - root n (- t)).
    { intros t Ht. rewrite (root_of_neg n t Ht), root_of_pos by lra. reflexivity. }
    apply is_derive_ext_loc with (fun t => - root n (- t)).
    { apply (locally_open (fun u => u < 0)); [apply open_lt | | exact Hneg].
      intros t Ht. symmetry. apply E, Ht. }
    rewrite (E x Hneg), Hk, pow_opp_even, <- Hk.
    apply Rd_val with (- (/ (IZR (Zpos n) * root n (- x) ^ (Pos.to_nat n - 1)) * - 1)); [|ring].
    apply Rd_opp, (Rd_comp (root n) (fun t => - t));
      [apply is_derive_root_pos; lra | apply Rd_opp, Rd_id].
Qed.

Lemma upd_same (rho : env) (v x : name) : upd rho v (rho v) x = rho x.
Proof.
  unfold upd. destruct (name_eqb x v) eqn:E; [|reflexivity].
  apply name_eqb_eq in E; subst; reflexivity.
Qed.

Lemma upd_other (rho : env) (v x : name) (t : R) : x <> v -> upd rho v t x = rho x.
Proof. intro H. unfold upd. apply name_eqb_neq in H. rewrite H. reflexivity. Qed.

Lemma upd_eq (rho : env) (v : name) (t : R) : upd rho v t v = t.
Proof. unfold upd. rewrite name_eqb_refl. reflexivity. Qed.

Lemma denote_upd_same (rho : env) (v : name) (e : expr R) :
  denote (upd rho v (rho v)) e = denote rho e.
Proof. apply denote_ext; intros x _; apply upd_same. Qed.

Lemma denote_upd_absent (rho : env) (v : name) (t : R) (e : expr R) :
  ~ In v (vars e) -> denote (upd rho v t) e = denote rho e.
Proof.
  intro H. apply denote_ext; intros x Hx. apply upd_other.
  intro E; subst; contradiction.
Qed.

Lemma mapi_from_shift {A B} (f : nat -> A -> B) (l : list A) (k : nat) :
  mapi_from (S k) f l = mapi_from k (fun i => f (S i)) l.
Proof.
  revert k; induction l as [|a l IH]; intro k; cbn [mapi_from]; [reflexivity|].
  rewrite IH; reflexivity.
Qed.

Lemma mapi_from_id {A} (l : list A) (k : nat) : mapi_from k (fun _ d => d) l = l.
Proof.
  revert k. induction l as [|a l IH]; intro k; cbn [mapi_from]; [|rewrite IH]; reflexivity.
Qed.

Lemma mapi_from_ext {A B} (f g : nat -> A -> B) (l : list A) (k : nat) :
  (forall i x, f i x = g i x) -> mapi_from k f l = mapi_from k g l.
Proof.
  intro H. revert k; induction l as [|a l IH]; intro k; cbn [mapi_from]; [reflexivity|].
  rewrite H, IH. reflexivity.
Qed.

(* the premises of C05 *)

Definition wf_dom (rho : env) (e : expr R) : Prop := wfR e /\ InDomain rho e.

Lemma wf_dom_Add rho l : wf_dom rho (Add l) <-> Forall (wf_dom rho) l.
Proof.
  unfold wf_dom. rewrite wf_Add_Forall, InDomain_Add_Forall.
  split; [intros [Hw Hd]; apply Forall_and; assumption | apply Forall_and_inv].
Qed.

Lemma wf_dom_Mul rho l : wf_dom rho (Mul l) <-> Forall (wf_dom rho) l.
Proof.
  unfold wf_dom. rewrite wf_Mul_Forall, InDomain_Mul_Forall.
  split; [intros [Hw Hd]; apply Forall_and; assumption | apply Forall_and_inv].
Qed.

Lemma wf_dom_inner rho (e : expr R) : wf_dom rho e -> wf_dom rho (inner_of e).
Proof. intros [Hw Hd]. split; [apply wf_inner | apply (InDomain_unary rho e)]; assumption. Qed.

Definition unary_fac (e : expr R) (x : R) : R :=
  match e with
  | Neg _ => - 1
  | Recip _ => - / x ^ 2
  | Sin _ => cos x
  | Cos _ => - sin x
  | NthPow _ n => IZR (Zpos n) * x ^ (Pos.to_nat n - 1)
  | NthRoot _ n => / (IZR (Zpos n) * root n x ^ (Pos.to_nat n - 1))
  | Exp _ b => ln b * Rpower b x
  | Log _ b => / (ln b * x)
  | _ => 0
  end.

Lemma unary_fac_derive (e : expr R) (x : R) :
  is_unary e = true -> unary_dom e x -> is_derive (unary_den e) x (unary_fac e x).
Proof.
  intros Hu Hd. destruct e; try discriminate Hu; unfold unary_den, unary_fac; cbn [unary_dom] in Hd.
  - apply Rd_opp, Rd_id.
  - eapply Rd_val; [apply (is_derive_inv (fun t => t)); [apply Rd_id | exact Hd]|].
    cbv beta. field. exact Hd.
  - apply is_derive_sin.
  - apply is_derive_cos.
  - apply Rd_val with (INR (Pos.to_nat n) * 1 * x ^ pred (Pos.to_nat n)).
    + apply (is_derive_pow (fun t => t)). apply Rd_id.
    + rewrite INR_IZR_INZ, positive_nat_Z, Nat.sub_1_r. ring.
  - apply is_derive_root, Hd.
  - apply Rd_Rpower_exponent.
  - apply is_derive_ext with (fun t => / ln base * ln t); [intro t; apply Rmult_comm|].
    rewrite Rinv_mult. apply is_derive_scal, is_derive_ln, Hd.
Qed.

Section TP.
  Variable rho : env.
  Variable v : name.

  Lemma tp_ext_value (e : expr R) (d d' : R) :
    true_partial rho e v d -> d = d' -> true_partial rho e v d'.
  Proof. intros H E; subst; exact H. Qed.

  Lemma tp_unique (e : expr R) (d1 d2 : R) :
    true_partial rho e v d1 -> true_partial rho e v d2 -> d1 = d2.
  Proof.
    unfold true_partial; intros H1 H2.
    apply is_derive_unique in H1. apply is_derive_unique in H2. congruence.
  Qed.

  Lemma tp_absent (e : expr R) : ~ In v (vars e) -> true_partial rho e v 0.
  Proof.
    intro H. unfold true_partial.
    apply is_derive_ext with (fun _ : R => denote rho e);
      [intro t; symmetry; apply denote_upd_absent; exact H | apply Rd_const].
  Qed.

  Lemma tp_const (c : R) : true_partial rho (Const c) v 0.
  Proof. apply tp_absent. intros []. Qed.

  Lemma tp_var_other (x : name) : x <> v -> true_partial rho (Var x) v 0.
  Proof. intro H. apply tp_absent. intros [E|[]]. exact (H E). Qed.

  Lemma tp_var_same : true_partial rho (Var v) v 1.
  Proof.
    unfold true_partial; cbn [denote].
    apply is_derive_ext with (fun t : R => t); [intro t; symmetry; apply upd_eq | apply Rd_id].
  Qed.

  Lemma tp_add (l : list (expr R)) (ds : list R) :
    Forall2 (fun a d => true_partial rho a v d) l ds ->
    true_partial rho (Add l) v (fold_right Rplus 0 ds).
  Proof.
    induction 1 as [|a d l ds Ha Hl IH]; unfold true_partial in *; cbn [denote fold_right] in *.
    - apply Rd_const.
    - exact (is_derive_plus (V:=R_NormedModule) _ _ _ _ _ Ha IH).
  Qed.

  Lemma sum_mapi_scal (va : R) (f g : nat -> R -> R) (ds : list R) (k : nat) :
    (forall i d, f i d = va * g i d) ->
    fold_right Rplus 0 (mapi_from k f ds) = va * fold_right Rplus 0 (mapi_from k g ds).
  Proof.
    intro Hfg. revert k; induction ds as [|d ds IH]; intro k; cbn [mapi_from fold_right].
    - ring.
    - rewrite IH, Hfg. ring.
  Qed.

  Lemma mul_dvalue_cons (va d : R) (vs ds : list R) :
    fold_right Rplus 0
      (mapi (fun i d => fold_right Rmult 1 (d :: remove_nth i (va :: vs))) (d :: ds))
    = d * fold_right Rmult 1 vs
      + va * fold_right Rplus 0
               (mapi (fun i d => fold_right Rmult 1 (d :: remove_nth i vs)) ds).
  Proof.
    unfold mapi. cbn [mapi_from fold_right remove_nth]. rewrite mapi_from_shift.
    f_equal.
    apply sum_mapi_scal. intros i d0. cbn [fold_right remove_nth]. ring.
  Qed.

  Lemma tp_mul (l : list (expr R)) (ds : list R) :
    Forall2 (fun a d => true_partial rho a v d) l ds ->
    true_partial rho (Mul l) v
      (fold_right Rplus 0
         (mapi (fun i d => fold_right Rmult 1 (d :: remove_nth i (map (denote rho) l))) ds)).
  Proof.
    induction 1 as [|a d l ds Ha Hl IH].
    - unfold true_partial; cbn [denote fold_right]. apply Rd_const.
    - cbn [map]. rewrite mul_dvalue_cons.
      unfold true_partial in *. cbn [denote fold_right].
      apply Rd_val with
        (d * denote (upd rho v (rho v)) (Mul l) + denote (upd rho v (rho v)) a *
           fold_right Rplus 0
             (mapi (fun i d0 => fold_right Rmult 1 (d0 :: remove_nth i (map (denote rho) l))) ds)).
      + apply (Rd_mult (fun t => denote (upd rho v t) a) (fun t => denote (upd rho v t) (Mul l)));
          assumption.
      + rewrite !denote_upd_same, denote_Mul_map. reflexivity.
  Qed.

  Lemma tp_minus (a b : expr R) (da db : R) :
    true_partial rho a v da -> true_partial rho b v db ->
    true_partial rho (Minus a b) v (da - db).
  Proof.
    unfold true_partial; cbn [denote]; intros Ha Hb.
    exact (is_derive_minus (V:=R_NormedModule) _ _ _ _ _ Ha Hb).
  Qed.

  Lemma tp_divide (a b : expr R) (da db : R) :
    true_partial rho a v da -> true_partial rho b v db -> denote rho b <> 0 ->
    true_partial rho (Divide a b) v
      (/ denote rho b * da + - (denote rho a / denote rho b ^ 2) * db).
  Proof.
    unfold true_partial; cbn [denote]; intros Ha Hb Hb0.
    eapply Rd_val.
    - apply (is_derive_div (fun t => denote (upd rho v t) a) (fun t => denote (upd rho v t) b));
        [exact Ha | exact Hb | rewrite denote_upd_same; exact Hb0].
    - cbv beta. rewrite !denote_upd_same. field. exact Hb0.
  Qed.

  Lemma tp_power (a b : expr R) (da db : R) :
    0 < denote rho a -> true_partial rho a v da -> true_partial rho b v db ->
    true_partial rho (Power a b) v
      (denote rho b * Rpower (denote rho a) (denote rho b - 1) * da
       + ln (denote rho a) * Rpower (denote rho a) (denote rho b) * db).
  Proof.
    unfold true_partial; cbn [denote]; intros Hva Ha Hb.
    eapply Rd_val.
    - apply (Rd_Rpower (fun t => denote (upd rho v t) a) (fun t => denote (upd rho v t) b));
        [rewrite denote_upd_same; exact Hva | exact Ha | exact Hb].
    - cbv beta. rewrite !denote_upd_same. reflexivity.
  Qed.

  Definition dfac (e : expr R) : R := unary_fac e (denote rho (inner_of e)).

  Lemma tp_unary (e : expr R) (da : R) :
    is_unary e = true -> InDomain rho e ->
    true_partial rho (inner_of e) v da -> true_partial rho e v (dfac e * da).
  Proof.
    intros Hu Hd Ha. unfold true_partial in *.
    apply is_derive_ext with (fun t => unary_den e (denote (upd rho v t) (inner_of e)));
      [intro t; symmetry; apply denote_unary|].
    apply (Rd_comp (unary_den e) (fun t => denote (upd rho v t) (inner_of e))); [|exact Ha].
    cbv beta. rewrite denote_upd_same.
    apply unary_fac_derive; [exact Hu | apply (InDomain_unary rho e), Hd].
  Qed.
End TP.

Print Assumptions tp_mul.
Print Assumptions tp_power.
Print Assumptions tp_absent.
