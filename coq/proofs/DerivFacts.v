(** The numeric derivative model of Forward.v / Reverse.v at [RInst], one node at a time: inside
    the domain every partial formula multiplies by a real factor.  Lemmas named [_R] speak of
    operands whose values are given; those named [_adm] of a node that the point [admits], where
    the values are [denote].  The latter stand under [Heval : C01_eval_sound], the hypothesis
    relative to which Deriv.v (C03) and ReverseSound.v (C04) state their theorems. *)
From Coq Require Import Reals ZArith List Bool Lra.
From SM Require Import Num Syntax Outcome Eval Forward Reverse RInst Denote Spec.
From SM.proofs Require Import SyntaxFacts RInstFacts EvalSound DerivLemmas.
Import ListNotations.
Open Scope R_scope.

Lemma unary_formula_R p e x m : is_unary e = true -> wfR e ->
  evalR p (inner_of e) = Val x -> unary_dom e x ->
  unary_formula RInst p e m = Val (unary_fac e x * m).
Proof.
  intros Hu Hw Hin Hd. pose proof (eval_unary_Val p e x Hu Hw Hin Hd) as Hself.
  destruct e; try discriminate Hu;
    cbn [inner_of unary_dom unary_den unary_formula unary_fac] in *.
  - rewrite mf_negation_R. f_equal. ring.
  - rewrite Hin. cbn [bind]. rewrite mf_nth_power_R. cbn [bind].
    rewrite mf_divide_R by (apply pow_nonzero, Hd). cbn [bind].
    rewrite mf_negation_R. f_equal. change (Pos.to_nat 2) with 2%nat. unfold Rdiv. ring.
  - rewrite Hin. cbn [bind]. rewrite mf_cosine_R. cbn [bind].
    rewrite mf_multiply_R. cbn [fold_right]. f_equal. ring.
  - rewrite Hin. cbn [bind]. rewrite mf_sine_R. cbn [bind].
    rewrite mf_multiply_R, mf_negation_R. cbn [fold_right]. f_equal. ring.
  - destruct (Pos.eq_dec n 1) as [->|Hn].
    + change (Pos.to_nat 1 - 1)%nat with 0%nat. cbn [pow]. f_equal. ring.
    + rewrite (match_pos_not1 n _ _ Hn), Hin. cbn [bind].
      rewrite mf_nth_power_R. cbn [bind]. rewrite mf_multiply_R, to_nat_pred by exact Hn.
      cbn [fold_right nofZ RInst]. f_equal. ring.
  - (* the divisor n * root^(n-1) is not zero *)
    destruct (Pos.eq_dec n 1) as [->|Hn].
    + change (Pos.to_nat 1 - 1)%nat with 0%nat. cbn [pow]. f_equal. field.
    + rewrite (match_pos_not1 n _ _ Hn), Hself. cbn [bind].
      rewrite mf_nth_power_R. cbn [bind]. rewrite mf_multiply_R, to_nat_pred by exact Hn.
      cbn [fold_right nofZ RInst]. rewrite Rmult_1_r. rewrite mf_divide_R.
      * f_equal. apply Rmult_comm.
      * apply Rmult_integral_contrapositive_currified; [apply IZR_neq; discriminate|].
        apply pow_nonzero, root_nonzero, (root_dom_nonzero n x Hd Hn).
  - apply wf_Exp_R in Hw. destruct Hw as [Hb _]. simpl neqb.
    destruct (Req_EM_T base 1) as [E1|E1]; rbool.
    + rewrite E1, ln_1. f_equal. simpl. ring.
    + rewrite Hself. cbn [bind]. simpl neqb.
      destruct (Req_EM_T base (exp 1)) as [E2|E2]; rbool.
      * rewrite mf_multiply_R, E2, ln_exp. cbn [fold_right]. f_equal. ring.
      * rewrite mf_logarithm_e by exact Hb. cbn [bind].
        rewrite mf_multiply_R. cbn [fold_right]. f_equal. ring.
  - (* the divisor ln b * x is not zero *)
    apply wf_Log_R in Hw. destruct Hw as (Hb & Hb1 & _).
    rewrite Hin. cbn [bind]. simpl neqb.
    destruct (Req_EM_T base (exp 1)) as [E2|E2]; rbool.
    + rewrite mf_divide_R, E2, ln_exp, Rmult_1_l by lra. f_equal. apply Rmult_comm.
    + rewrite mf_logarithm_e by exact Hb. cbn [bind].
      rewrite mf_multiply_R. cbn [fold_right]. rewrite Rmult_1_r, mf_divide_R.
      * f_equal. apply Rmult_comm.
      * apply Rmult_integral_contrapositive_currified; [apply ln_neq_0; assumption | lra].
Qed.

Lemma divide_formula_left_R p a b y m : evalR p b = Val y -> y <> 0 ->
  divide_formula_left RInst p a b m = Val (/ y * m).
Proof.
  intros Eb Hy. unfold divide_formula_left. rewrite Eb. cbn [bind].
  rewrite mf_divide_R by exact Hy. f_equal. apply Rmult_comm.
Qed.

Lemma divide_formula_right_R p a b x y m : evalR p a = Val x -> evalR p b = Val y -> y <> 0 ->
  divide_formula_right RInst p a b m = Val (- (x / y ^ 2) * m).
Proof.
  intros Ea Eb Hy. unfold divide_formula_right. rewrite Ea, Eb. cbn [bind].
  rewrite mf_nth_power_R. cbn [bind]. rewrite mf_divide_R by (apply pow_nonzero, Hy). cbn [bind].
  rewrite mf_multiply_R, mf_negation_R. cbn [fold_right]. f_equal.
  change (Pos.to_nat 2) with 2%nat. ring.
Qed.

Lemma power_formula_left_R p a b x y m : evalR p a = Val x -> evalR p b = Val y -> 0 < x ->
  power_formula_left RInst p a b m = Val (y * Rpower x (y - 1) * m).
Proof.
  intros Ea Eb Hx. unfold power_formula_left. rewrite Ea, Eb. cbn [bind].
  rewrite mf_power_R by exact Hx. cbn [bind].
  rewrite mf_multiply_R. cbn [fold_right]. f_equal. rewrite mf_minus_R. simpl. ring.
Qed.

(* the formula evaluates the node itself *)
Lemma power_formula_right_R p a b x y m : evalR p a = Val x -> evalR p b = Val y -> 0 < x ->
  power_formula_right RInst p a b m = Val (ln x * Rpower x y * m).
Proof.
  intros Ea Eb Hx. unfold power_formula_right. cbn [eval]. rewrite Ea, Eb. cbn [bind].
  rewrite (yields_on _ _ _ (checked_power_R x y) Hx). cbn [bind].
  rewrite mf_logarithm_e by exact Hx. cbn [bind].
  rewrite mf_multiply_R. cbn [fold_right]. f_equal. ring.
Qed.

Lemma power_shortcut_R p a x : evalR p a = Val x ->
  exists sc, power_shortcut RInst p a = Val sc /\ (sc = true -> vars a = [] /\ x = 1).
Proof.
  intro Ea. unfold power_shortcut. destruct (var_free a) eqn:Evf.
  - rewrite Ea. cbn [bind]. eexists. split; [reflexivity|].
    intro E. split; [apply var_free_vars, Evf | apply Reqb_true, E].
  - exists false. split; [reflexivity | discriminate].
Qed.

(* the premises of C03 and C04 *)
Definition admits (p : point R) (e : expr R) : Prop := wf_dom (env_of p) e /\ supplies p e.

Lemma admits_Add p l : admits p (Add l) -> Forall (admits p) l.
Proof. intros [Hg Hs]. apply Forall_and; [apply wf_dom_Add, Hg | apply supplies_Add, Hs]. Qed.

Lemma admits_Mul p l : admits p (Mul l) -> Forall (admits p) l.
Proof. intros [Hg Hs]. apply Forall_and; [apply wf_dom_Mul, Hg | apply supplies_Mul, Hs]. Qed.

Lemma admits_Minus p a b : admits p (Minus a b) -> admits p a /\ admits p b.
Proof.
  intros [[[Hwa Hwb] [Hda Hdb]] Hs]. apply supplies_Minus in Hs. destruct Hs.
  repeat split; assumption.
Qed.

Lemma admits_Divide p a b :
  admits p (Divide a b) -> admits p a /\ admits p b /\ denote (env_of p) b <> 0.
Proof.
  intros [[[Hwa Hwb] (Hda & Hdb & Hnz)] Hs]. apply supplies_Divide in Hs. destruct Hs.
  repeat split; assumption.
Qed.

Lemma admits_Power p a b :
  admits p (Power a b) -> admits p a /\ admits p b /\ 0 < denote (env_of p) a.
Proof.
  intros [[[Hwa Hwb] (Hda & Hdb & Hpos)] Hs]. apply supplies_Power in Hs. destruct Hs.
  repeat split; assumption.
Qed.

Lemma admits_inner p e : admits p e -> admits p (inner_of e).
Proof. intros [Hg Hs]. split; [apply wf_dom_inner, Hg | apply (supplies_unary p e), Hs]. Qed.

Lemma unary_verify_adm p e : is_unary e = true -> admits p e ->
  unary_verify RInst e (denote (env_of p) (inner_of e)) = Val tt.
Proof.
  intros Hu [[_ Hd] _]. apply (yields_on _ _ _ (unary_verify_R e _)).
  apply (InDomain_unary _ e), Hd.
Qed.

Section WithEval.
  Hypothesis Heval : C01_eval_sound.

  Lemma admits_eval p e : admits p e -> evalR p e = Val (denote (env_of p) e).
  Proof. intros [[Hw Hd] Hs]. apply Heval; assumption. Qed.

  Lemma admits_eval_list p l :
    Forall (admits p) l -> eval_list RInst p l = Val (map (denote (env_of p)) l).
  Proof.
    intro H. apply sequence_map_Val. eapply Forall_impl; [|exact H]. apply admits_eval.
  Qed.

  Lemma unary_formula_adm p e m : is_unary e = true -> admits p e ->
    unary_formula RInst p e m = Val (dfac (env_of p) e * m).
  Proof.
    intros Hu Hok. unfold dfac.
    apply unary_formula_R; [exact Hu | apply Hok | apply admits_eval, admits_inner, Hok|].
    apply (InDomain_unary _ e), Hok.
  Qed.

  Lemma fwd_unary_adm v p e d : is_unary e = true -> admits p e ->
    fwdR v p (inner_of e) = Val d -> fwdR v p e = Val (dfac (env_of p) e * d).
  Proof.
    intros Hu Hok Ed.
    rewrite (fwd_unary RInst v p e Hu), (admits_eval p _ (admits_inner p e Hok)), Ed. cbn [bind].
    rewrite (unary_verify_adm p e Hu Hok). cbn [bind]. apply unary_formula_adm; assumption.
  Qed.

  Lemma rev_unary_adm p e m acc : is_unary e = true -> admits p e ->
    rev RInst p e m acc = rev RInst p (inner_of e) (dfac (env_of p) e * m) acc.
  Proof.
    intros Hu Hok.
    rewrite (rev_unary RInst p e m acc Hu), (admits_eval p _ (admits_inner p e Hok)),
      (unary_formula_adm p e m Hu Hok). cbn [bind].
    rewrite (unary_verify_adm p e Hu Hok). reflexivity.
  Qed.

  Lemma fwd_Divide_adm v p a b da db :
    admits p (Divide a b) -> fwdR v p a = Val da -> fwdR v p b = Val db ->
    fwdR v p (Divide a b) =
    Val (/ denote (env_of p) b * da
         + - (denote (env_of p) a / denote (env_of p) b ^ 2) * db).
  Proof.
    intros Hok Ea Eb. destruct (admits_Divide p a b Hok) as (Ha & Hb & Hnz).
    apply admits_eval in Ha, Hb. cbn [fwd]. rewrite Ha, Hb, Ea, Eb. cbn [bind].
    rewrite (yields_on _ _ _ (verify_divide_R _ _) Hnz). cbn [bind].
    rewrite (divide_formula_left_R p a b _ _ Hb Hnz), (divide_formula_right_R p a b _ _ _ Ha Hb Hnz).
    cbn [bind]. rewrite mf_add_R. cbn [fold_right]. rewrite Rplus_0_r. reflexivity.
  Qed.

  Lemma rev_Divide_adm p a b m acc : admits p (Divide a b) ->
    rev RInst p (Divide a b) m acc =
    (acc1 <- rev RInst p a (/ denote (env_of p) b * m) acc ;;
     rev RInst p b (- (denote (env_of p) a / denote (env_of p) b ^ 2) * m) acc1).
  Proof.
    intro Hok. destruct (admits_Divide p a b Hok) as (Ha & Hb & Hnz).
    apply admits_eval in Ha, Hb. cbn [rev]. rewrite Ha, Hb. cbn [bind].
    rewrite (yields_on _ _ _ (verify_divide_R _ _) Hnz). cbn [bind].
    rewrite (divide_formula_left_R p a b _ _ Hb Hnz), (divide_formula_right_R p a b _ _ _ Ha Hb Hnz).
    reflexivity.
  Qed.

  Lemma power_shortcut_adm p a : admits p a ->
    exists sc, power_shortcut RInst p a = Val sc /\
      (sc = true -> vars a = [] /\ denote (env_of p) a = 1).
  Proof. intro Ha. exact (power_shortcut_R p a _ (admits_eval p a Ha)). Qed.

  Lemma fwd_Power_adm v p a b da db sc :
    admits p (Power a b) -> power_shortcut RInst p a = Val sc ->
    fwdR v p a = Val da -> fwdR v p b = Val db ->
    fwdR v p (Power a b) =
    Val (if sc then 0
         else denote (env_of p) b * Rpower (denote (env_of p) a) (denote (env_of p) b - 1) * da
              + ln (denote (env_of p) a)
                * Rpower (denote (env_of p) a) (denote (env_of p) b) * db).
  Proof.
    intros Hok Hsc Ea Eb. destruct (admits_Power p a b Hok) as (Ha & Hb & Hpos).
    apply admits_eval in Ha, Hb. cbn [fwd].
    rewrite (admits_eval p _ Hok), Hsc. cbn [bind]. destruct sc; [reflexivity|].
    rewrite Ha, Hb, Ea, Eb. cbn [bind].
    rewrite (yields_on _ _ _ (verify_power_R _ _) Hpos). cbn [bind].
    rewrite (power_formula_left_R p a b _ _ _ Ha Hb Hpos), (power_formula_right_R p a b _ _ _ Ha Hb Hpos).
    reflexivity.
  Qed.

  Lemma rev_Power_adm p a b m acc sc :
    admits p (Power a b) -> power_shortcut RInst p a = Val sc ->
    rev RInst p (Power a b) m acc =
    if sc then Val acc
    else
      acc1 <- rev RInst p a
                (denote (env_of p) b * Rpower (denote (env_of p) a) (denote (env_of p) b - 1)
                 * m) acc ;;
      rev RInst p b
        (ln (denote (env_of p) a) * Rpower (denote (env_of p) a) (denote (env_of p) b) * m)
        acc1.
  Proof.
    intros Hok Hsc. destruct (admits_Power p a b Hok) as (Ha & Hb & Hpos).
    apply admits_eval in Ha, Hb. cbn [rev].
    rewrite (admits_eval p _ Hok), Hsc. cbn [bind]. destruct sc; [reflexivity|].
    rewrite Ha, Hb. cbn [bind].
    rewrite (yields_on _ _ _ (verify_power_R _ _) Hpos). cbn [bind].
    rewrite (power_formula_left_R p a b _ _ _ Ha Hb Hpos), (power_formula_right_R p a b _ _ _ Ha Hb Hpos).
    reflexivity.
  Qed.
End WithEval.
