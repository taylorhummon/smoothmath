(** Which kind of outcome the derivative traversals produce.  C07: on a well-formed tree, at any
    point, both [tracks] the evaluation: a value where it has one, a DomainError where it is one.
    Under [supplies] evaluation is total (C02, a hypothesis here), which makes that [same_kind].
    C14 (no CoordinateMissing) and C17 (no foreign Python exception) are the two instances of
    [never]. *)
From Coq Require Import Reals ZArith List Bool Lra.
From SM Require Import Num Syntax Outcome MathFun Eval Forward Reverse RInst Denote Spec.
From SM.proofs Require Import SyntaxFacts RInstFacts EvalSound DerivFacts.
Import ListNotations.
Open Scope R_scope.

Definition isv {A} (o : outcome A) : Prop := exists a, o = Val a.

Lemma isv_of_eq {A} {o : outcome A} a : o = Val a -> isv o.
Proof. intro H. exists a. exact H. Qed.

Lemma isv_Val A (a : A) : isv (Val a).
Proof. exact (isv_of_eq a eq_refl). Qed.

Lemma isv_bind A B (o : outcome A) (f : A -> outcome B) :
  isv o -> (forall a, o = Val a -> isv (f a)) -> isv (bind o f).
Proof. intros [a ->] H. exact (H a eq_refl). Qed.

(* The traversals at a Divide or Power node whose check has passed; [Q] is [isv] or a [fine]. *)
Section BindClosed.
  Variable Q : forall A, outcome A -> Prop.
  Arguments Q {A}.
  Hypothesis Q_Val : forall A (a : A), Q (Val a).
  Hypothesis Q_bind : forall A B (o : outcome A) (f : A -> outcome B),
    Q o -> (forall a, o = Val a -> Q (f a)) -> Q (bind o f).

  Lemma fwd_binary_closed A (oa ob : outcome R) (fl fr : R -> outcome R) (g : R -> R -> A) :
    Q oa -> Q ob -> (forall d, Q (fl d)) -> (forall d, Q (fr d)) ->
    Q (da <- oa ;; db <- ob ;; x <- fl da ;; y <- fr db ;; Val (g x y)).
  Proof.
    intros Ha Hb Hl Hr. apply Q_bind; [exact Ha|intros da _]. apply Q_bind; [exact Hb|intros db _].
    apply Q_bind; [apply Hl|intros x _]. apply Q_bind; [apply Hr|intros y _]. apply Q_Val.
  Qed.

  Lemma rev_binary_closed A (ol or : outcome R) (ra rb : R -> A -> outcome A) acc :
    Q ol -> Q or -> (forall m acc', Q (ra m acc')) -> (forall m acc', Q (rb m acc')) ->
    Q (ml <- ol ;; mr <- or ;; acc1 <- ra ml acc ;; rb mr acc1).
  Proof.
    intros Hl Hr Ha Hb. apply Q_bind; [exact Hl|intros ml _]. apply Q_bind; [exact Hr|intros mr _].
    apply Q_bind; [apply Ha|intros acc1 _]. apply Hb.
  Qed.
End BindClosed.

(* Where [o2] fails otherwise nothing is claimed, so that [tracks] passes through [bind] without
   a side condition, as [same_kind] does not. *)
Definition tracks {A B} (o1 : outcome A) (o2 : outcome B) : Prop :=
  (isv o2 -> isv o1) /\ (o2 = DomErr -> o1 = DomErr).

Lemma tracks_same_kind A B (o1 : outcome A) (o2 : outcome B) :
  tracks o1 o2 -> vd o2 -> same_kind o1 o2.
Proof.
  intros [V D] [H| ->]; [destruct H as [b ->]; destruct (V (isv_Val _ b)) as [a ->]|rewrite (D eq_refl)];
    split; reflexivity.
Qed.

Lemma tracks_val A B (o : outcome A) (b : B) : isv o -> tracks o (Val b).
Proof. intro H. split; [intros _; exact H|discriminate]. Qed.

Lemma tracks_dom A B : tracks (@DomErr A) (@DomErr B).
Proof. split; [intros [b E]; discriminate E|reflexivity]. Qed.

Lemma tracks_other A B (o1 : outcome A) (o2 : outcome B) :
  (forall b, o2 <> Val b) -> o2 <> DomErr -> tracks o1 o2.
Proof. intros NV ND. split; [intros [b E]; destruct (NV b E)|intro E; destruct (ND E)]. Qed.

Lemma tracks_inv_val {A B} {o1 : outcome A} {o2 : outcome B} b : tracks o1 o2 -> o2 = Val b -> isv o1.
Proof. intros [V _] ->. apply V, isv_Val. Qed.

Lemma tracks_bind A B A' B' (o1 : outcome A) (o2 : outcome B) (f : A -> outcome A') (g : B -> outcome B') :
  tracks o1 o2 -> (forall a b, o1 = Val a -> o2 = Val b -> tracks (f a) (g b)) ->
  tracks (bind o1 f) (bind o2 g).
Proof.
  intros [V D] K. destruct o2 as [b| | |k]; cbn [bind]; [| |apply tracks_other; discriminate ..].
  - destruct (V (isv_Val _ b)) as [a ->]. exact (K a b eq_refl eq_refl).
  - rewrite (D eq_refl). apply tracks_dom.
Qed.

Lemma tracks_bind_same A A' B' (o : outcome A) (f : A -> outcome A') (g : A -> outcome B') :
  (forall a, o = Val a -> tracks (f a) (g a)) -> tracks (bind o f) (bind o g).
Proof.
  intro K. destruct o as [a| | |k]; cbn [bind];
    [exact (K a eq_refl)|apply tracks_dom|apply tracks_other; discriminate ..].
Qed.

Lemma tracks_after A B (o : outcome A) (k : outcome B) :
  (forall s, o = Val s -> isv k) -> tracks (_ <- o ;; k) o.
Proof.
  intro K. destruct o as [s| | |e]; cbn [bind];
    [apply tracks_val, (K s eq_refl)|apply tracks_dom|apply tracks_other; discriminate ..].
Qed.

Lemma tracks_map_l A B A' (o1 : outcome A) (o2 : outcome B) (f : A -> A') :
  tracks o1 o2 -> tracks (x <- o1 ;; Val (f x)) o2.
Proof.
  intros [V D]. split; [intro H; destruct (V H) as [a ->]; apply isv_Val|intro E; rewrite (D E); reflexivity].
Qed.

Lemma tracks_map_r A B B' (o1 : outcome A) (o2 : outcome B) (g : B -> B') :
  tracks o1 o2 -> tracks o1 (y <- o2 ;; Val (g y)).
Proof.
  intros [V D]. split; [intros [r E]; apply V|intro E; apply D]; destruct o2; try discriminate E;
    [apply isv_Val|reflexivity].
Qed.

Lemma tracks_sequence X A B (f : X -> outcome A) (g : X -> outcome B) l :
  Forall (fun x => tracks (f x) (g x)) l -> tracks (sequence (map f l)) (sequence (map g l)).
Proof.
  induction 1 as [|x l Hx Hl IH]; cbn [map sequence]; [apply tracks_val, isv_Val|].
  apply tracks_bind; [exact Hx|intros a b _ _].
  apply tracks_bind; [exact IH|intros; apply tracks_val, isv_Val].
Qed.

Lemma tracks_rev_each p mult l :
  Forall (fun x => forall m acc, tracks (rev RInst p x m acc) (evalR p x)) l ->
  forall i acc, tracks (rev_each RInst p mult i l acc) (sequence (map (evalR p) l)).
Proof.
  induction 1 as [|x r Hx Hr IH]; intros i acc; cbn [rev_each map sequence];
    [apply tracks_val, isv_Val|].
  apply tracks_bind; [apply Hx|intros acc' y _ _]. apply tracks_map_r, IH.
Qed.

(* Both traversals start a unary, a Divide or a Power node with the evaluations and the check
   that [eval] makes there; if these pass, the node has a value and so have its partial formulas. *)
Lemma tracks_unary p e B (rest : R -> outcome B) :
  is_unary e = true -> wfR e ->
  (forall x, evalR p (inner_of e) = Val x -> unary_dom e x -> isv (rest x)) ->
  tracks (iv <- evalR p (inner_of e) ;; _ <- unary_verify RInst e iv ;; rest iv) (evalR p e).
Proof.
  intros U W K. rewrite (eval_unary RInst p e U). apply tracks_bind_same. intros x Ea.
  destruct (unary_verify_R e x) as [[D ->]|[_ ->]]; cbn [bind]; [|apply tracks_dom].
  rewrite (unary_value_R e x W D). apply tracks_val, K; assumption.
Qed.

Lemma tracks_divide p a b B (rest : R -> R -> outcome B) :
  (forall x y, evalR p a = Val x -> evalR p b = Val y ->
     (forall m, isv (divide_formula_left RInst p a b m)) ->
     (forall m, isv (divide_formula_right RInst p a b m)) -> isv (rest x y)) ->
  tracks (lv <- evalR p a ;; rv <- evalR p b ;; _ <- verify_divide RInst lv rv ;; rest lv rv)
         (evalR p (Divide a b)).
Proof.
  intro K. cbn [eval]. apply tracks_bind_same. intros x Ea. apply tracks_bind_same. intros y Eb.
  destruct (verify_divide_R x y) as [[Hy ->]|[_ ->]]; cbn [bind]; [|apply tracks_dom].
  rewrite (mf_divide_R x y Hy). apply tracks_val, (K x y Ea Eb); intro m.
  - exact (isv_of_eq _ (divide_formula_left_R p a b y m Eb Hy)).
  - exact (isv_of_eq _ (divide_formula_right_R p a b x y m Ea Eb Hy)).
Qed.

Lemma tracks_power p a b B (c : B) (rest : R -> R -> outcome B) :
  (forall x y, evalR p a = Val x -> evalR p b = Val y ->
     (forall m, isv (power_formula_left RInst p a b m)) ->
     (forall m, isv (power_formula_right RInst p a b m)) -> isv (rest x y)) ->
  tracks (_ <- evalR p (Power a b) ;; sc <- power_shortcut RInst p a ;;
          if sc then Val c
          else lv <- evalR p a ;; rv <- evalR p b ;; _ <- verify_power RInst lv rv ;; rest lv rv)
         (evalR p (Power a b)).
Proof.
  intro K. apply tracks_after. intros s Es.
  destruct (eval_Power_inv p a b s Es) as [x [y [Ea [Eb Hx]]]].
  destruct (power_shortcut_R p a x Ea) as [sc [-> _]]. cbn [bind]. destruct sc; [apply isv_Val|].
  rewrite Ea, Eb. cbn [bind]. rewrite (yields_on _ _ _ (verify_power_R x y) Hx).
  apply (K x y Ea Eb); intro m.
  - exact (isv_of_eq _ (power_formula_left_R p a b x y m Ea Eb Hx)).
  - exact (isv_of_eq _ (power_formula_right_R p a b x y m Ea Eb Hx)).
Qed.

Lemma fwd_tracks : forall e p v, wfR e -> tracks (fwdR v p e) (evalR p e).
Proof.
  induction e as [c|x|l IH|l IH|a b IHa IHb|a b IHa IHb|a b IHa IHb|e U IH] using expr_ind_unary;
    intros p v W.
  - apply tracks_val, isv_Val.
  - cbn [fwd eval]. unfold coordinate.
    destruct (lookup x p); [apply tracks_val|apply tracks_other; discriminate].
    destruct (name_eqb x v); apply isv_Val.
  - apply wf_Add_Forall in W. cbn [fwd eval].
    apply tracks_bind; [apply tracks_sequence|intros; apply tracks_val, isv_Val].
    rewrite Forall_forall in *. auto.
  - apply wf_Mul_Forall in W. cbn [fwd eval]. unfold eval_list.
    apply tracks_bind_same. intros vs E.
    apply tracks_val, isv_bind; [|intros; apply isv_Val].
    eapply tracks_inv_val; [apply tracks_sequence|exact E]. rewrite Forall_forall in *. auto.
  - destruct W as [Wa Wb]. cbn [fwd eval].
    apply tracks_bind; [apply IHa, Wa|intros da x _ _].
    apply tracks_bind; [apply IHb, Wb|intros; apply tracks_val, isv_Val].
  - destruct W as [Wa Wb]. cbn [fwd]. apply tracks_divide. intros x y Ea Eb Fl Fr.
    apply (fwd_binary_closed (@isv) isv_Val isv_bind);
      [exact (tracks_inv_val x (IHa p v Wa) Ea)|exact (tracks_inv_val y (IHb p v Wb) Eb)
      |exact Fl|exact Fr].
  - destruct W as [Wa Wb]. cbn [fwd]. apply tracks_power. intros x y Ea Eb Fl Fr.
    apply (fwd_binary_closed (@isv) isv_Val isv_bind);
      [exact (tracks_inv_val x (IHa p v Wa) Ea)|exact (tracks_inv_val y (IHb p v Wb) Eb)
      |exact Fl|exact Fr].
  - rewrite (fwd_unary RInst v p e U). apply tracks_unary; [exact U|exact W|intros x Ea D].
    apply isv_bind; [exact (tracks_inv_val x (IH p v (wf_inner RInst e W)) Ea)|intros d _].
    exact (isv_of_eq _ (unary_formula_R p e x d U W Ea D)).
Qed.

Lemma rev_tracks : forall e p m acc, wfR e -> tracks (rev RInst p e m acc) (evalR p e).
Proof.
  induction e as [c|x|l IH|l IH|a b IHa IHb|a b IHa IHb|a b IHa IHb|e U IH] using expr_ind_unary;
    intros p m acc W.
  - apply tracks_val, isv_Val.
  - cbn [rev eval]. unfold coordinate.
    destruct (lookup x p); [apply tracks_val, isv_Val|apply tracks_other; discriminate].
  - apply wf_Add_Forall in W. rewrite rev_Add. cbn [eval].
    apply tracks_map_r, tracks_rev_each. rewrite Forall_forall in *. auto.
  - apply wf_Mul_Forall in W. rewrite rev_Mul. cbn [eval]. unfold eval_list.
    apply tracks_bind_same. intros vs E.
    apply tracks_val. eapply tracks_inv_val; [apply tracks_rev_each|exact E].
    rewrite Forall_forall in *. auto.
  - destruct W as [Wa Wb]. cbn [rev eval].
    apply tracks_bind; [apply IHa, Wa|intros acc1 x _ _]. apply tracks_map_r, IHb, Wb.
  - destruct W as [Wa Wb]. cbn [rev]. apply tracks_divide. intros x y Ea Eb Fl Fr.
    apply (rev_binary_closed (@isv) isv_bind);
      [apply Fl|apply Fr
      |exact (fun m' acc' => tracks_inv_val x (IHa p m' acc' Wa) Ea)
      |exact (fun m' acc' => tracks_inv_val y (IHb p m' acc' Wb) Eb)].
  - destruct W as [Wa Wb]. cbn [rev]. apply tracks_power. intros x y Ea Eb Fl Fr.
    apply (rev_binary_closed (@isv) isv_bind);
      [apply Fl|apply Fr
      |exact (fun m' acc' => tracks_inv_val x (IHa p m' acc' Wa) Ea)
      |exact (fun m' acc' => tracks_inv_val y (IHb p m' acc' Wb) Eb)].
  - rewrite (rev_unary RInst p e m acc U). apply tracks_unary; [exact U|exact W|intros x Ea D].
    rewrite (unary_formula_R p e x m U W Ea D). cbn [bind].
    exact (tracks_inv_val x (IH p _ acc (wf_inner RInst e W)) Ea).
Qed.

(** A kind of failure that the traversals never produce: [fine] says that an outcome is not of
    that kind, [prem] is the premise on point and tree under which evaluation is fine. *)
Section Never.
  Variable fine : forall A, outcome A -> Prop.
  Arguments fine {A}.
  Hypothesis fine_vd : forall A (o : outcome A), vd o -> fine o.
  Hypothesis fine_bind : forall A B (o : outcome A) (f : A -> outcome B),
    fine o -> (forall a, o = Val a -> fine (f a)) -> fine (bind o f).
  Variable prem : point R -> expr R -> Prop.
  Hypothesis prem_children : forall p e, prem p e -> Forall (prem p) (echildren e).
  Hypothesis prem_eval : forall p e, prem p e -> fine (evalR p e).
  (* ln(base), which the formulas of Exp and Log compute *)
  Hypothesis prem_base : forall p a b,
    prem p (Exp a b) \/ prem p (Log a b) -> fine (mf_logarithm RInst b (n_e RInst)).

  Lemma fine_Val A (a : A) : fine (Val a).
  Proof. apply fine_vd, vd_Val. Qed.

  (* [auto] with these hints walks along a short row of [bind]s whose steps are an evaluation, a
     test, or a function whose outcome is a value or a DomainError. *)
  Create HintDb nb.
  #[local] Hint Resolve fine_bind fine_vd prem_eval prem_base vd_Val vd_DomErr vd_mf_divide vd_mf_power
    vd_mf_nth_power vd_mf_sine vd_mf_cosine : nb.
  #[local] Hint Extern 1 (fine (if ?c then _ else _)) => destruct c : nb.

  Lemma fine_sequence X A (f : X -> outcome A) l :
    Forall (fun x => fine (f x)) l -> fine (sequence (map f l)).
  Proof. induction 1; cbn [map sequence]; auto 6 with nb. Qed.

  Lemma prem_inner p e : is_unary e = true -> prem p e -> prem p (inner_of e).
  Proof.
    intros U H. apply prem_children in H. rewrite (echildren_unary e U) in H. exact (Forall_inv H).
  Qed.

  Lemma prem_pair p e a b : prem p e -> echildren e = [a; b] -> prem p a /\ prem p b.
  Proof.
    intros H E. apply prem_children in H. rewrite E in H.
    split; [exact (Forall_inv H)|exact (Forall_inv (Forall_inv_tail H))].
  Qed.

  Lemma fine_unary_formula p e m : is_unary e = true -> prem p e -> fine (unary_formula RInst p e m).
  Proof.
    intros U H. pose proof (prem_inner p e U H) as Ha.
    destruct e; try discriminate U; cbn [unary_formula inner_of] in *; try destruct n;
      eauto 12 with nb.
  Qed.

  Lemma fine_divide_formula_left p a b : prem p b -> forall m, fine (divide_formula_left RInst p a b m).
  Proof. intros Hb m. unfold divide_formula_left. auto with nb. Qed.

  Lemma fine_divide_formula_right p a b :
    prem p a -> prem p b -> forall m, fine (divide_formula_right RInst p a b m).
  Proof. intros Ha Hb m. unfold divide_formula_right. auto 10 with nb. Qed.

  Lemma fine_power_formula_left p a b :
    prem p a -> prem p b -> forall m, fine (power_formula_left RInst p a b m).
  Proof. intros Ha Hb m. unfold power_formula_left. auto 8 with nb. Qed.

  (* ln(left value) is computed after the node itself was evaluated: the left value is positive *)
  Lemma fine_power_formula_right p a b :
    prem p (Power a b) -> forall m, fine (power_formula_right RInst p a b m).
  Proof.
    intros H m. destruct (prem_pair p _ a b H eq_refl) as [Ha _]. unfold power_formula_right.
    apply fine_bind; [apply prem_eval, Ha|intros lv Ea].
    apply fine_bind; [apply prem_eval, H|intros sv Es].
    destruct (eval_Power_inv p a b sv Es) as [x [y [Ea' [_ Hx]]]].
    rewrite Ea' in Ea. injection Ea as <-.
    change (n_e RInst) with (exp 1). rewrite mf_logarithm_e by exact Hx. apply fine_Val.
  Qed.

  Lemma fine_checked p a b (chk : R -> R -> outcome unit) B (rest : outcome B) :
    prem p a -> prem p b -> (forall x y, vd (chk x y)) -> fine rest ->
    fine (lv <- evalR p a ;; rv <- evalR p b ;; _ <- chk lv rv ;; rest).
  Proof.
    intros Ha Hb Hc Hr. apply fine_bind; [apply prem_eval, Ha|intros x _].
    apply fine_bind; [apply prem_eval, Hb|intros y _].
    apply fine_bind; [apply fine_vd, Hc|intros _ _]. exact Hr.
  Qed.

  Lemma fine_power p a b B (c : B) (rest : outcome B) :
    prem p (Power a b) -> fine rest ->
    fine (_ <- evalR p (Power a b) ;; sc <- power_shortcut RInst p a ;;
          if sc then Val c
          else lv <- evalR p a ;; rv <- evalR p b ;; _ <- verify_power RInst lv rv ;; rest).
  Proof.
    intros H Hr. destruct (prem_pair p _ a b H eq_refl) as [Ha Hb].
    apply fine_bind; [apply prem_eval, H|intros _ _].
    apply fine_bind; [unfold power_shortcut; auto with nb|intros sc _].
    destruct sc; [apply fine_Val|]. exact (fine_checked p a b _ _ _ Ha Hb vd_verify_power Hr).
  Qed.

  Lemma fwd_fine : forall e p v, prem p e -> fine (fwdR v p e).
  Proof.
    induction e as [c|x|l IH|l IH|a b IHa IHb|a b IHa IHb|a b IHa IHb|e U IH] using expr_ind_unary;
      intros p v H.
    - apply fine_Val.
    - cbn [fwd]. destruct (name_eqb x v); apply fine_Val.
    - cbn [fwd]. apply prem_children in H. cbn [echildren] in H.
      apply fine_bind; [apply fine_sequence|intros; apply fine_Val]. rewrite Forall_forall in *. auto.
    - cbn [fwd]. unfold eval_list. apply prem_children in H. cbn [echildren] in H.
      apply fine_bind; [|intros vs _; apply fine_bind; [|intros; apply fine_Val]];
        apply fine_sequence; rewrite Forall_forall in *; auto.
    - destruct (prem_pair p _ a b H eq_refl) as [Ha Hb]. cbn [fwd].
      apply fine_bind; [apply IHa, Ha|intros da _]. apply fine_bind; [apply IHb, Hb|intros; apply fine_Val].
    - destruct (prem_pair p _ a b H eq_refl) as [Ha Hb]. cbn [fwd].
      apply fine_checked; [exact Ha|exact Hb|exact vd_verify_divide|].
      apply (fwd_binary_closed (@fine) fine_Val fine_bind);
        [apply IHa, Ha|apply IHb, Hb
        |exact (fine_divide_formula_left p a b Hb)|exact (fine_divide_formula_right p a b Ha Hb)].
    - destruct (prem_pair p _ a b H eq_refl) as [Ha Hb]. cbn [fwd]. apply fine_power; [exact H|].
      apply (fwd_binary_closed (@fine) fine_Val fine_bind);
        [apply IHa, Ha|apply IHb, Hb
        |exact (fine_power_formula_left p a b Ha Hb)|exact (fine_power_formula_right p a b H)].
    - pose proof (prem_inner p e U H) as Ha. rewrite (fwd_unary RInst v p e U).
      auto 10 using vd_unary_verify, fine_unary_formula with nb.
  Qed.

  Lemma rev_fine : forall e p m acc, prem p e -> fine (rev RInst p e m acc).
  Proof.
    induction e as [c|x|l IH|l IH|a b IHa IHb|a b IHa IHb|a b IHa IHb|e U IH] using expr_ind_unary;
      intros p m acc H.
    - apply fine_Val.
    - apply fine_Val.
    - rewrite rev_Add. apply prem_children in H. cbn [echildren] in H.
      apply (rev_each_ind RInst fine); [exact (fine_Val _)|exact (fine_bind _ _)|].
      rewrite Forall_forall in *. auto.
    - rewrite rev_Mul. unfold eval_list. apply prem_children in H. cbn [echildren] in H.
      apply fine_bind; [apply fine_sequence|intros vs _; apply (rev_each_ind RInst fine)];
        [|exact (fine_Val _)|exact (fine_bind _ _)|]; rewrite Forall_forall in *; auto.
    - destruct (prem_pair p _ a b H eq_refl) as [Ha Hb]. cbn [rev].
      apply fine_bind; [apply IHa, Ha|intros acc1 _]. apply IHb, Hb.
    - destruct (prem_pair p _ a b H eq_refl) as [Ha Hb]. cbn [rev].
      apply fine_checked; [exact Ha|exact Hb|exact vd_verify_divide|].
      apply (rev_binary_closed (@fine) fine_bind);
        [exact (fine_divide_formula_left p a b Hb m)|exact (fine_divide_formula_right p a b Ha Hb m)
        |intros; apply IHa, Ha|intros; apply IHb, Hb].
    - destruct (prem_pair p _ a b H eq_refl) as [Ha Hb]. cbn [rev]. apply fine_power; [exact H|].
      apply (rev_binary_closed (@fine) fine_bind);
        [exact (fine_power_formula_left p a b Ha Hb m)|exact (fine_power_formula_right p a b H m)
        |intros; apply IHa, Ha|intros; apply IHb, Hb].
    - pose proof (prem_inner p e U H) as Ha. rewrite (rev_unary RInst p e m acc U).
      auto 10 using vd_unary_verify, fine_unary_formula with nb.
  Qed.

  Theorem never p e v : prem p e ->
    fine (evalR p e) /\ fine (fwdR v p e) /\ (forall m acc, fine (rev RInst p e m acc)).
  Proof.
    intro H. split; [apply prem_eval, H|]. split; [apply fwd_fine, H|]. intros m acc. apply rev_fine, H.
  Qed.
End Never.

Lemma nm_bind A B (o : outcome A) (f : A -> outcome B) :
  o <> CoordMissing -> (forall a, o = Val a -> f a <> CoordMissing) -> bind o f <> CoordMissing.
Proof. destruct o; cbn [bind]; intros H1 H2; auto; discriminate. Qed.

Lemma np_bind k A B (o : outcome A) (f : A -> outcome B) :
  o <> PyErr k -> (forall a, o = Val a -> f a <> PyErr k) -> bind o f <> PyErr k.
Proof.
  destruct o; cbn [bind]; intros H1 H2; auto; try discriminate. intro E. apply H1. congruence.
Qed.

Lemma vd_not_missing A (o : outcome A) : vd o -> o <> CoordMissing.
Proof. intros [[a ->]| ->]; discriminate. Qed.
Lemma vd_not_pyerr k A (o : outcome A) : vd o -> o <> PyErr k.
Proof. intros [[a ->]| ->]; discriminate. Qed.

Lemma mf_logarithm_not_missing {T} (N : NumOps T) x b : mf_logarithm N x b <> CoordMissing.
Proof.
  unfold mf_logarithm, prim_log.
  repeat match goal with |- context [if ?c then _ else _] => destruct c end; discriminate.
Qed.

Lemma wf_base_ln a b : wfR (Exp a b) \/ wfR (Log a b) -> mf_logarithm RInst b (exp 1) = Val (ln b).
Proof.
  intros [W|W]; [apply wf_Exp_R in W|apply wf_Log_R in W]; apply mf_logarithm_e, W.
Qed.

Section K.
  Hypothesis Htotal : C02_total.
  Hypothesis Hnomiss : forall p e, supplies p e -> evalR p e <> CoordMissing.
  Hypothesis Hnopy : forall p e k, wfR e -> evalR p e <> PyErr k.

  Lemma eval_vd p e : wfR e -> supplies p e -> vd (evalR p e).
  Proof.
    intros W S. destruct (Htotal p e W S) as [H|H]; rewrite H; [apply vd_Val|apply vd_DomErr].
  Qed.

  Theorem fwd_same_kind : C07_fwd.
  Proof using Htotal.
    intros p e v Hw Hs. apply tracks_same_kind; [apply fwd_tracks, Hw|apply eval_vd; assumption].
  Qed.

  Theorem no_missing : C14_no_missing.
  Proof using Hnomiss.
    intros p e v.
    exact (never (fun A o => o <> CoordMissing) vd_not_missing nm_bind
             supplies supplies_children Hnomiss
             (fun _ _ b _ => mf_logarithm_not_missing RInst b _) p e v).
  Qed.

  Theorem no_pyerr : C17_no_pyerr.
  Proof using Hnopy.
    intros p e v k.
    apply (never (fun A o => o <> PyErr k) (vd_not_pyerr k) (np_bind k)
             (fun _ e => wfR e) (fun _ e => wf_children RInst e) (fun p e => Hnopy p e k)).
    intros _ a b W. change (n_e RInst) with (exp 1). rewrite (wf_base_ln a b W). discriminate.
  Qed.

  Theorem rev_same_kind : C07_rev.
  Proof using Htotal.
    intros p e enum Hw Hs. unfold numeric_partials.
    apply tracks_same_kind; [apply tracks_map_l, rev_tracks, Hw|apply eval_vd; assumption].
  Qed.
End K.

(* Stated for their own sake; nothing uses them.  [vd] is this file's own from here on,
   convertible with [RInstFacts.vd]. *)
Definition vd {A} (o : outcome A) : Prop := (exists a, o = Val a) \/ o = DomErr.

Lemma K_nleb_true x : nleb RInst x 0 = true -> x <= 0.
Proof.
  intro H. change (Rltb x 0 || Reqb x 0 = true) in H. apply orb_prop in H.
  destruct H as [H|H]; [apply Rltb_true in H|apply Reqb_true in H]; lra.
Qed.

Lemma K_exponential_vd x b : vd (mf_exponential RInst x b).
Proof. exact (vd_mf_exponential x b). Qed.

Lemma K_nth_root_vd x n : vd (mf_nth_root RInst x n).
Proof.
  destruct (Rlt_dec 0 x) as [Hp|Hn].
  - rewrite mf_nth_root_pos_R by exact Hp. apply vd_Val.
  - assert (P : Rltb 0 x = false) by (apply Rltb_false, Hn).
    destruct (Z.even (Zpos n)) eqn:Ev.
    + unfold mf_nth_root. simpl nltb. change (n0 RInst) with 0. rewrite P.
      destruct n as [[q|q|]|[q|q|]|]; cbn [Z.even] in *; try discriminate; apply vd_DomErr.
    + destruct (Req_EM_T x 0) as [H0|H0].
      * assert (E0 : Reqb x 0 = true) by (apply Reqb_true, H0).
        unfold mf_nth_root. simpl nltb. simpl neqb. change (n0 RInst) with 0. rewrite P, E0.
        destruct n as [[q|q|]|[q|q|]|]; cbn [Z.even] in *; try discriminate;
          try apply vd_DomErr. apply vd_Val.
      * rewrite mf_nth_root_neg_odd_R by (try exact Ev; lra). apply vd_Val.
Qed.

Lemma K_root_nonzero n x : x <> 0 -> root n x <> 0.
Proof. exact (root_nonzero n x). Qed.

(* Non-vacuity: the premises hold of this tree at every point over its two variables, among them
   points outside its domain (x = 0). *)
Definition ex_tree : expr R :=
  Log (Divide (Var 2%positive)
              (Add [Var 2%positive; Power (Const 2) (Var 3%positive);
                    NthRoot (Mul [Var 3%positive; Neg (Var 2%positive)]) 3]))
      10.

Example ex_tree_wf : wfR ex_tree.
Proof.
  simpl. repeat split; [apply Rltb_true; lra | apply Reqb_false; lra].
Qed.

Example ex_tree_supplies x y : supplies [(2%positive, x); (3%positive, y)] ex_tree.
Proof.
  intros z Hz. simpl in Hz.
  repeat (destruct Hz as [<-|Hz]; [cbn; discriminate|]). contradiction.
Qed.

Example ex_tree_kinds (Ht : C02_total) x y v :
  same_kind (fwdR v [(2%positive, x); (3%positive, y)] ex_tree)
            (evalR [(2%positive, x); (3%positive, y)] ex_tree)
  /\ same_kind (numeric_partials RInst [(2%positive, x); (3%positive, y)] ex_tree [2%positive; 3%positive])
               (evalR [(2%positive, x); (3%positive, y)] ex_tree).
Proof.
  split.
  - apply (fwd_same_kind Ht); [apply ex_tree_wf | apply ex_tree_supplies].
  - apply (rev_same_kind Ht); [apply ex_tree_wf | apply ex_tree_supplies].
Qed.

Check fwd_same_kind.
Check rev_same_kind.
Check no_missing.
Check no_pyerr.
Print Assumptions fwd_same_kind.
Print Assumptions rev_same_kind.
Print Assumptions no_missing.
Print Assumptions no_pyerr.
