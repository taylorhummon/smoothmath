(** The driver and the normal-form pass refine, given that every single rule ([C08_rules_sound],
    the KF-ROOT instance excluded) and constant folding ([C08_consolidate_sound]) refine: the two
    are the hypotheses of [Section C], and premises of its four theorems. *)
From Coq Require Import Reals ZArith List Bool.
From SM Require Import Syntax MathFun Eval Rules Driver Normalize RInst Denote Spec.
From SM.proofs Require Import SyntaxFacts RulesFacts RInstFacts RefinesFacts.
Import ListNotations.
Open Scope R_scope.

Local Notation E := (expr R).

Lemma CL_Forall2_refl (l : list E) : Forall2 refines l l.
Proof. induction l as [|a l IH]; constructor; [apply refines_refl | exact IH]. Qed.

Lemma CL_cong2 (e : E) a a' b b' :
  echildren e = [a; b] -> refines a a' -> refines b b' -> refines e (erebuild e [a'; b']).
Proof.
  intros C Ha Hb. apply refines_rebuild. rewrite C. repeat (constructor; [assumption|]). constructor.
Qed.

Lemma CL_cong1 (e : E) a a' : echildren e = [a] -> refines a a' -> refines e (erebuild e [a']).
Proof.
  intros C Ha. apply refines_rebuild. rewrite C. repeat (constructor; [assumption|]). constructor.
Qed.

Lemma CL_good_trace_app (a b : list (label (T:=R))) :
  good_trace (a ++ b) = true <-> good_trace a = true /\ good_trace b = true.
Proof. unfold good_trace. rewrite forallb_app. apply andb_true_iff. Qed.

Lemma CL_good_trace_cons (lab : label (T:=R)) tr :
  good_trace (lab :: tr) = true <-> bad_label lab = false /\ good_trace tr = true.
Proof.
  unfold good_trace. cbn [forallb]. rewrite andb_true_iff, negb_true_iff. tauto.
Qed.

(** ** The normal-form pass
    It treats a sum ([b = true]: [Neg], [Minus], 0) and a product ([Recip], [Divide], 1) alike:
    the negated (reciprocal) operands move to one side ([CL_partition]) and a difference
    (quotient) is assembled ([CL_assemble_sound]). *)

Definition CL_inverse (b : bool) (u : E) : E := if b then Neg u else Recip u.
Definition CL_quot (b : bool) (x y : E) : E := if b then Minus x y else Divide x y.
Definition CL_is_inverse (b : bool) : E -> bool := if b then is_Neg else is_Recip.
Definition CL_simplified (b : bool) : list E -> E :=
  if b then simplified_add RInst else simplified_multiply RInst.
Definition CL_assemble (b : bool) : list E -> list E -> E :=
  if b then assemble_add RInst else assemble_multiply RInst.

Lemma CL_quot_wf b x y : wfR (CL_quot b x y) <-> wfR x /\ wfR y.
Proof. destruct b; reflexivity. Qed.
Lemma CL_quot_vars b (x y : E) : vars (CL_quot b x y) = vars x ++ vars y.
Proof. destruct b; reflexivity. Qed.
Lemma CL_quot_dom b rho x y :
  InDomain rho (CL_quot b x y) <->
  InDomain rho x /\ InDomain rho y /\ (if b then True else denote rho y <> 0).
Proof. destruct b; cbn [CL_quot InDomain]; tauto. Qed.
Lemma CL_quot_den b rho x y :
  denote rho (CL_quot b x y) = (if b then Rminus else Rdiv) (denote rho x) (denote rho y).
Proof. destruct b; reflexivity. Qed.

Lemma CL_quot_cong b x x' y y' :
  refines x x' -> refines y y' -> refines (CL_quot b x y) (CL_quot b x' y').
Proof. destruct b; [apply (CL_cong2 (Minus x y)) | apply (CL_cong2 (Divide x y))]; reflexivity. Qed.

Lemma CL_inverse_cong b x x' : refines x x' -> refines (CL_inverse b x) (CL_inverse b x').
Proof. destruct b; [apply (CL_cong1 (Neg x)) | apply (CL_cong1 (Recip x))]; reflexivity. Qed.

Lemma CL_simplified_sound b (l : list E) : refines (nary b l) (CL_simplified b l).
Proof.
  destruct l as [|t [|t2 l]].
  - destruct b; rule_intro; intros rho _ _; (split; [exact I | reflexivity]).
  - destruct b; apply nary_unwrap.
  - destruct b; apply refines_refl.
Qed.

Lemma CL_quot_unit_r b (x : E) : refines (CL_quot b x (nary b [])) x.
Proof.
  apply refines_intro.
  - rewrite CL_quot_wf. tauto.
  - rewrite CL_quot_vars, vars_nary. apply incl_appl, incl_refl.
  - intros rho _. rewrite CL_quot_dom, CL_quot_den, den_nary. intros (D & _).
    split; [exact D|]. destruct b; cbn; field.
Qed.

Lemma CL_quot_unit_l b (y : E) : refines (CL_quot b (nary b []) y) (CL_inverse b y).
Proof.
  apply refines_intro.
  - rewrite CL_quot_wf. destruct b; cbn [CL_inverse wf]; tauto.
  - rewrite CL_quot_vars, vars_nary. destruct b; apply incl_refl.
  - intros rho _. rewrite CL_quot_dom, CL_quot_den, den_nary.
    destruct b; cbn [CL_inverse InDomain denote]; intros (_ & D & N); (split; [tauto|]); cbn; field; exact N.
Qed.

Lemma CL_assemble_sound b (ti tii : list E) :
  refines (CL_quot b (nary b ti) (nary b tii)) (CL_assemble b ti tii).
Proof.
  destruct ti as [|t ti]; destruct tii as [|u tii].
  - apply (refines_trans _ _ _ (CL_quot_unit_r b _)). destruct b; exact (CL_simplified_sound _ []).
  - apply (refines_trans _ _ _ (CL_quot_unit_l b _)).
    destruct b; exact (CL_inverse_cong _ _ _ (CL_simplified_sound _ (u :: tii))).
  - apply (refines_trans _ _ _ (CL_quot_unit_r b _)). destruct b; exact (CL_simplified_sound _ (t :: ti)).
  - destruct b;
      exact (CL_quot_cong _ _ _ _ _ (CL_simplified_sound _ (t :: ti)) (CL_simplified_sound _ (u :: tii))).
Qed.

Lemma CL_inverse_through b :
  through b b (CL_inverse b) (if b then Ropp else Rinv) (fun x => if b then True else x <> 0).
Proof. destruct b; [exact Neg_through | exact Recip_through]. Qed.

(** inverses on one side: every denominator is non-zero because each [Recip u] is inside
    its domain *)
Lemma CL_split b a us :
  refines (nary b (a ++ map (CL_inverse b) us)) (CL_quot b (nary b a) (nary b us)).
Proof.
  apply refines_intro.
  - rewrite CL_quot_wf, !wf_nary, Forall_app, Forall_map. destruct b; exact (fun W => W).
  - rewrite CL_quot_vars, !vars_nary, flat_map_app, flat_map_vars_map;
      [apply incl_refl | destruct b; reflexivity].
  - intros rho _.
    rewrite CL_quot_dom, CL_quot_den, !dom_nary, !den_nary, map_app, opR_app, Forall_app,
      (through_dom (CL_inverse_through b)), (through_den (CL_inverse_through b)).
    intros (Da & Du & HD). destruct (through_hom (CL_inverse_through b) _ HD) as [N E].
    rewrite E. destruct b; (split; [tauto | reflexivity]).
Qed.

Lemma CL_partition b (l : list E) :
  refines (nary b l)
    (CL_quot b (nary b (filter (fun x => negb (CL_is_inverse b x)) l))
               (nary b (map inner_of (filter (CL_is_inverse b) l)))).
Proof.
  apply (refines_trans _ _ _ (nary_perm b _ _ (filter_perm (CL_is_inverse b) l))).
  rewrite (filter_shape (CL_is_inverse b) (CL_inverse b) l) at 1; [apply CL_split|].
  destruct b; [apply is_Neg_shape | apply is_Recip_shape].
Qed.

Lemma CL_omapM_Forall2 {A B} (f : A -> option B) l ys :
  omapM f l = Some ys -> Forall2 (fun x y => f x = Some y) l ys.
Proof.
  revert ys. induction l as [|x l IH]; intros ys H; cbn [omapM] in H.
  - inversion H. constructor.
  - destruct (f x) as [y|] eqn:Hf; [|discriminate].
    destruct (omapM f l) as [ys0|] eqn:Hm; [|discriminate].
    inversion H; subst. constructor; [exact Hf | apply IH; reflexivity].
Qed.

Lemma CL_omapM_refines (f : E -> option E) (tr : E -> list (label (T:=R))) (g : E -> E) l ys :
  (forall x y, f x = Some y -> good_trace (tr x) = true -> refines (g x) y) ->
  omapM f l = Some ys -> good_trace (flat_map tr l) = true -> Forall2 refines (map g l) ys.
Proof.
  intros Hf Hm. apply CL_omapM_Forall2 in Hm.
  induction Hm as [|x y l ys Hxy Hl IH]; cbn [flat_map map]; intro Hg.
  - constructor.
  - apply CL_good_trace_app in Hg. destruct Hg as [G1 G2].
    constructor; [apply Hf; assumption | apply IH; exact G2].
Qed.

(* t._normalize() for a term t of a sum or product *)
Lemma CL_nfr_nary fuel d b (l : list E) :
  let others := filter (fun x => negb (CL_is_inverse b x)) l in
  let invs := filter (CL_is_inverse b) l in
  nfr RInst fuel (S d) (nary b l) =
    match omapM (normalize RInst fuel d) others,
          omapM (fun t => normalize RInst fuel d (inner_of t)) invs with
    | Some ti, Some tii => Some (CL_assemble b ti tii)
    | _, _ => None
    end /\
  nfr_trace RInst fuel (S d) (nary b l) =
    flat_map (normalize_trace RInst fuel d) others ++
    flat_map (fun t => normalize_trace RInst fuel d (inner_of t)) invs.
Proof. destruct b; split; reflexivity. Qed.

Lemma CL_nfr_children fuel d (e : E) :
  (exists b l, e = nary b l) \/
  nfr RInst fuel (S d) e = option_map (erebuild e) (omapM (nfr RInst fuel d) (echildren e)) /\
  nfr_trace RInst fuel (S d) e = flat_map (nfr_trace RInst fuel d) (echildren e).
Proof.
  destruct e; [| |left; exists true, l; reflexivity | left; exists false, l; reflexivity |..].
  all: right; cbn [nfr nfr_trace echildren omapM flat_map]; rewrite ?app_nil_r.
  all: split; [|reflexivity].
  all: repeat match goal with
         | |- context [nfr RInst ?f ?k ?a] => destruct (nfr RInst f k a)
         end; reflexivity.
Qed.

Section C.
  Hypothesis Hrules : C08_rules_sound.
  Hypothesis Hcons : C08_consolidate_sound.

  Lemma CL_rules_at_sound (e e' : E) lab :
    rules_at RInst e = Some (lab, e') -> bad_label lab = false -> refines e e'.
  Proof.
    unfold rules_at, apply_reducers. intros H Hbad.
    destruct (first_reducer (reducers_of RInst e) e) as [[nm e0]|] eqn:Hf; [|discriminate].
    inversion H; subst lab e0. clear H.
    destruct (first_reducer_in _ _ _ _ Hf) as (f & Hin & Hfe).
    exact (Hrules nm f e e' (reducers_of_all RInst e _ Hin) Hfe Hbad).
  Qed.

  Definition CL_step_ok (e : E) : Prop :=
    forall e' lab, step_named RInst e = Some (lab, e') -> bad_label lab = false -> refines e e'.

  Lemma CL_step_list_sound (l : list E) :
    Forall CL_step_ok l ->
    forall l' lab, step_list RInst l = Some (lab, l') -> bad_label lab = false -> Forall2 refines l l'.
  Proof.
    induction 1 as [|x r Hx Hr IH]; intros l' lab H Hbad; cbn [step_list] in H.
    - discriminate.
    - destruct (step_named RInst x) as [[lab0 x']|] eqn:Hs.
      + inversion H; subst lab0 l'. constructor; [exact (Hx _ _ Hs Hbad) | apply CL_Forall2_refl].
      + destruct (step_list RInst r) as [[lab0 r']|] eqn:Hsl; [|discriminate].
        inversion H; subst lab0 l'. constructor; [apply refines_refl | exact (IH _ _ eq_refl Hbad)].
  Qed.

  Lemma CL_step_ok_all (e : E) : CL_step_ok e.
  Proof.
    induction e as [e IH] using expr_ind_ch. intros e' lab H Hbad. rewrite step_named_unfold in H.
    destruct (consolidate RInst e) as [c|] eqn:Hc.
    - inversion H; subst lab e'. exact (Hcons e c Hc).
    - destruct (step_list RInst (echildren e)) as [[lab0 l']|] eqn:Hl.
      + inversion H; subst lab0 e'. apply refines_rebuild. exact (CL_step_list_sound _ IH _ _ Hl Hbad).
      + exact (CL_rules_at_sound e e' lab H Hbad).
  Qed.

  Theorem step_sound : C08_step_sound.
  Proof using Hrules Hcons. intros e e' lab H Hbad. exact (CL_step_ok_all e e' lab H Hbad). Qed.

  Theorem fully_reduce_sound : C08_fully_reduce_sound.
  Proof using Hrules Hcons.
    intro fuel. induction fuel as [|f IH]; intros e Hg; cbn [fully_reduce reduce_trace] in *.
    - apply refines_refl.
    - unfold step. destruct (step_named RInst e) as [[lab e']|] eqn:Hs.
      + apply CL_good_trace_cons in Hg. destruct Hg as [Hbad Hg].
        exact (refines_trans _ _ _ (step_sound _ _ _ Hs Hbad) (IH _ Hg)).
      + apply refines_refl.
  Qed.

  Definition CL_nfr_ok (fuel d : nat) : Prop :=
    forall e e' : E,
      nfr RInst fuel d e = Some e' -> good_trace (nfr_trace RInst fuel d e) = true -> refines e e'.

  Lemma CL_norm_sound fuel d :
    CL_nfr_ok fuel d ->
    forall t y : E,
      normalize RInst fuel d t = Some y -> good_trace (normalize_trace RInst fuel d t) = true ->
      refines t y.
  Proof.
    intros IH t y Hn Hg. apply CL_good_trace_app in Hg. destruct Hg as [G1 G2].
    exact (refines_trans _ _ _ (fully_reduce_sound _ _ G1) (IH _ _ Hn G2)).
  Qed.

  Lemma CL_nfr_ok_all fuel d : CL_nfr_ok fuel d.
  Proof.
    induction d as [|d IH]; intros e e' Hn Hg; [discriminate Hn|].
    destruct (CL_nfr_children fuel d e) as [(b & l & ->) | [En Et]].
    - destruct (CL_nfr_nary fuel d b l) as [En Et]. rewrite En in Hn. rewrite Et in Hg. clear En Et.
      apply CL_good_trace_app in Hg. destruct Hg as [G1 G2].
      destruct (omapM _ (filter (fun x => negb (CL_is_inverse b x)) l)) as [ti|] eqn:H1; [|discriminate].
      destruct (omapM _ (filter (CL_is_inverse b) l)) as [tii|] eqn:H2; [|discriminate].
      inversion Hn; subst e'. clear Hn.
      apply (refines_trans _ _ _ (CL_partition b l)).
      refine (refines_trans _ _ _ _ (CL_assemble_sound b ti tii)).
      apply CL_quot_cong; apply nary_cong.
      + rewrite <- (map_id (filter _ l)).
        exact (CL_omapM_refines _ _ (fun x => x) _ _ (CL_norm_sound fuel d IH) H1 G1).
      + exact (CL_omapM_refines _ _ inner_of _ _ (fun x => CL_norm_sound fuel d IH (inner_of x)) H2 G2).
    - rewrite En in Hn. rewrite Et in Hg.
      destruct (omapM (nfr RInst fuel d) (echildren e)) as [l'|] eqn:Hm; [|discriminate].
      inversion Hn; subst e'. apply refines_rebuild.
      rewrite <- (map_id (echildren e)). exact (CL_omapM_refines _ _ _ _ _ IH Hm Hg).
  Qed.

  Theorem nfr_sound : C08_nfr_sound.
  Proof using Hrules Hcons. intros fuel d e e' Hn Hg. exact (CL_nfr_ok_all fuel d e e' Hn Hg). Qed.

  Theorem normalize_sound : C08_normalize_sound.
  Proof using Hrules Hcons.
    intros fuel d e e' Hn Hg. exact (CL_norm_sound fuel d (CL_nfr_ok_all fuel d) e e' Hn Hg).
  Qed.
End C.

Example CL_step_nonvacuous :
  let e : E := Add [Var 1%positive; Sin (Neg (Neg (Var 2%positive)))] in
  exists lab, step_named RInst e = Some (lab, Add [Var 1%positive; Sin (Var 2%positive)])
              /\ bad_label lab = false /\ wfR e.
Proof. cbv zeta. eexists. split; [vm_compute; reflexivity|]. split; [reflexivity | simpl; tauto]. Qed.

Example CL_fully_reduce_nonvacuous :
  let e : E := Add [Var 1%positive; Sin (Neg (Neg (Var 2%positive)))] in
  good_trace (reduce_trace RInst 5 e) = true /\
  fully_reduce RInst 5 e = Add [Var 1%positive; Sin (Var 2%positive)].
Proof. cbv zeta. split; vm_compute; reflexivity. Qed.

Example CL_nfr_nonvacuous :
  let e : E := Mul [Add [Var 1%positive; Neg (Var 2%positive)]; Recip (Var 3%positive)] in
  nfr RInst 5 4 e = Some (Divide (Minus (Var 1%positive) (Var 2%positive)) (Var 3%positive)) /\
  good_trace (nfr_trace RInst 5 4 e) = true.
Proof. cbv zeta. split; vm_compute; reflexivity. Qed.

Example CL_normalize_nonvacuous :
  let e : E := Mul [Add [Var 1%positive; Neg (Neg (Neg (Var 2%positive)))]; Recip (Var 3%positive)] in
  normalize RInst 5 4 e = Some (Divide (Minus (Var 1%positive) (Var 2%positive)) (Var 3%positive)) /\
  good_trace (normalize_trace RInst 5 4 e) = true.
Proof. cbv zeta. split; vm_compute; reflexivity. Qed.

(** ** Stated for their own sake; nothing above uses them *)

Definition CL_sum (rho : env) (l : list E) : R := fold_right (fun a acc => denote rho a + acc) 0 l.
Definition CL_prod (rho : env) (l : list E) : R := fold_right (fun a acc => denote rho a * acc) 1 l.

Lemma CL_denote_Add rho l : denote rho (Add l) = CL_sum rho l.
Proof. reflexivity. Qed.
Lemma CL_denote_Mul rho l : denote rho (Mul l) = CL_prod rho l.
Proof. reflexivity. Qed.

Lemma CL_sum_app rho l1 l2 : CL_sum rho (l1 ++ l2) = CL_sum rho l1 + CL_sum rho l2.
Proof. rewrite <- !CL_denote_Add, !denote_Add_map, map_app. apply (opR_app true). Qed.
Lemma CL_prod_app rho l1 l2 : CL_prod rho (l1 ++ l2) = CL_prod rho l1 * CL_prod rho l2.
Proof. rewrite <- !CL_denote_Mul, !denote_Mul_map, map_app. apply (opR_app false). Qed.

Lemma CL_vars_Add (l : list E) : vars (Add l) = flat_map vars l.
Proof. reflexivity. Qed.
Lemma CL_vars_Mul (l : list E) : vars (Mul l) = flat_map vars l.
Proof. reflexivity. Qed.

Lemma CL_Forall2_at l1 l2 (x x' : E) :
  refines x x' -> Forall2 refines (l1 ++ x :: l2) (l1 ++ x' :: l2).
Proof.
  intro H. apply Forall2_app; [apply CL_Forall2_refl|]. constructor; [exact H | apply CL_Forall2_refl].
Qed.

Lemma CL_cong_Add_at l1 l2 x x' : refines x x' -> refines (Add (l1 ++ x :: l2)) (Add (l1 ++ x' :: l2)).
Proof. intro H. apply (nary_cong true), CL_Forall2_at, H. Qed.
Lemma CL_cong_Mul_at l1 l2 x x' : refines x x' -> refines (Mul (l1 ++ x :: l2)) (Mul (l1 ++ x' :: l2)).
Proof. intro H. apply (nary_cong false), CL_Forall2_at, H. Qed.

Lemma CL_cong_Minus_l a a' b : refines a a' -> refines (Minus a b) (Minus a' b).
Proof. intro H. exact (CL_cong2 (Minus a b) _ _ _ _ eq_refl H (refines_refl b)). Qed.
Lemma CL_cong_Minus_r a b b' : refines b b' -> refines (Minus a b) (Minus a b').
Proof. intro H. exact (CL_cong2 (Minus a b) _ _ _ _ eq_refl (refines_refl a) H). Qed.
Lemma CL_cong_Divide_l a a' b : refines a a' -> refines (Divide a b) (Divide a' b).
Proof. intro H. exact (CL_cong2 (Divide a b) _ _ _ _ eq_refl H (refines_refl b)). Qed.
Lemma CL_cong_Divide_r a b b' : refines b b' -> refines (Divide a b) (Divide a b').
Proof. intro H. exact (CL_cong2 (Divide a b) _ _ _ _ eq_refl (refines_refl a) H). Qed.
Lemma CL_cong_Power_l a a' b : refines a a' -> refines (Power a b) (Power a' b).
Proof. intro H. exact (CL_cong2 (Power a b) _ _ _ _ eq_refl H (refines_refl b)). Qed.
Lemma CL_cong_Power_r a b b' : refines b b' -> refines (Power a b) (Power a b').
Proof. intro H. exact (CL_cong2 (Power a b) _ _ _ _ eq_refl (refines_refl a) H). Qed.

Lemma CL_is_Neg_inv (x : E) : is_Neg x = true -> x = Neg (inner_of x).
Proof. apply is_Neg_shape. Qed.
Lemma CL_is_Recip_inv (x : E) : is_Recip x = true -> x = Recip (inner_of x).
Proof. apply is_Recip_shape. Qed.

Print Assumptions step_sound.
Print Assumptions fully_reduce_sound.
Print Assumptions nfr_sound.
Print Assumptions normalize_sound.
