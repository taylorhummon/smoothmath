(** * The rewriting simplifier of Driver.v terminates (C11).

    Every [step] strictly lowers, in the lexicographic order [lt4] and for every number
    interface [N], the measure
      mu e = (#Power nodes, #{Power, NthPow, NthRoot, Exp, Log} nodes,
              sum of n over the NthPow / NthRoot nodes, W e)
    with the polynomial weight [W] below. *)
From Coq Require Import String Rdefinitions.
From Coq Require Import ZArith List Bool Lia Arith Wf_nat Wellfounded.
From Coq Require Import Permutation.
From SM Require Import Num Syntax Eval Rules Driver RInst Spec.
From SM.proofs Require Import SyntaxFacts RulesFacts.
Import ListNotations.
Open Scope list_scope.
Open Scope nat_scope.

Definition lt4 (x y : nat * nat * nat * nat) : Prop :=
  let '(a1, b1, c1, d1) := x in
  let '(a2, b2, c2, d2) := y in
  a1 < a2 \/ (a1 = a2 /\ (b1 < b2 \/ (b1 = b2 /\ (c1 < c2 \/ (c1 = c2 /\ d1 < d2))))).

Lemma lt4_wf : well_founded lt4.
Proof.
  intros [[[a b] c] d]. revert b c d.
  induction a as [a IHa] using lt_wf_ind. intros b.
  induction b as [b IHb] using lt_wf_ind. intros c.
  induction c as [c IHc] using lt_wf_ind. intros d.
  induction d as [d IHd] using lt_wf_ind.
  constructor. intros [[[a' b'] c'] d'] H. cbn in H.
  destruct H as [H | [-> [H | [-> [H | [-> H]]]]]]; auto.
Qed.

Lemma lt4_trans x y z : lt4 x y -> lt4 y z -> lt4 x z.
Proof.
  destruct x as [[[a1 b1] c1] d1], y as [[[a2 b2] c2] d2], z as [[[a3 b3] c3] d3].
  cbn. lia.
Qed.

Lemma lt4_irrefl x : ~ lt4 x x.
Proof. destruct x as [[[a b] c] d]. cbn. lia. Qed.

Lemma lt4_1 a b c d a' b' c' d' : a' < a -> lt4 (a', b', c', d') (a, b, c, d).
Proof. cbn; lia. Qed.
Lemma lt4_2 a b c d a' b' c' d' : b' < b -> a' <= a -> lt4 (a', b', c', d') (a, b, c, d).
Proof. cbn; lia. Qed.
Lemma lt4_3 a b c d a' b' c' d' :
  c' < c -> a' <= a -> b' <= b -> lt4 (a', b', c', d') (a, b, c, d).
Proof. cbn; lia. Qed.
Lemma lt4_4 a b c d a' b' c' d' :
  d' < d -> a' <= a -> b' <= b -> c' <= c -> lt4 (a', b', c', d') (a, b, c, d).
Proof. cbn; lia. Qed.

Definition lsum {A} (f : A -> nat) : list A -> nat :=
  fix go l := match l with [] => 0 | x :: r => f x + go r end.

Section ListSums.
  Context {A : Type}.
  Implicit Types (f g : A -> nat) (p : A -> bool) (l : list A).

  Lemma lsum_app f l1 l2 : lsum f (l1 ++ l2) = lsum f l1 + lsum f l2.
  Proof. induction l1 as [|x r IH]; cbn [lsum app]; lia. Qed.

  Lemma lsum_ext_in f g l : (forall x, In x l -> f x = g x) -> lsum f l = lsum g l.
  Proof.
    induction l as [|x r IH]; intros H; cbn [lsum]; [reflexivity|].
    rewrite (H x (or_introl eq_refl)), IH; [reflexivity|].
    intros y Hy; apply H; right; exact Hy.
  Qed.

  Lemma lsum_plus f g l : lsum (fun x => f x + g x) l = lsum f l + lsum g l.
  Proof. induction l as [|x r IH]; cbn [lsum]; lia. Qed.

  Lemma lsum_const (k : nat) l : lsum (fun _ => k) l = k * length l.
  Proof. induction l as [|x r IH]; cbn [lsum length]; lia. Qed.

  Lemma lsum_scal (k : nat) f l : lsum (fun x => k * f x) l = k * lsum f l.
  Proof. induction l as [|x r IH]; cbn [lsum]; lia. Qed.

  Lemma lsum_affine (a b : nat) f g l :
    (forall x, In x l -> f x = a * g x + b) -> lsum f l = a * lsum g l + b * length l.
  Proof.
    intros H. rewrite (lsum_ext_in _ _ _ H), lsum_plus, lsum_scal, lsum_const. reflexivity.
  Qed.

  Lemma lsum_ge_length f l : (forall x, 1 <= f x) -> length l <= lsum f l.
  Proof.
    intros H; induction l as [|x r IH]; cbn [lsum length]; [lia|].
    specialize (H x); lia.
  Qed.

  Lemma lsum_partition f p l :
    lsum f (filter p l) + lsum f (filter (fun x => negb (p x)) l) = lsum f l.
  Proof.
    induction l as [|x r IH]; cbn [lsum filter]; [reflexivity|].
    destruct (p x); cbn [negb lsum]; lia.
  Qed.

  Lemma length_partition p l :
    length (filter p l) + length (filter (fun x => negb (p x)) l) = length l.
  Proof. pose proof (lsum_partition (fun _ => 1) p l) as H. rewrite !lsum_const in H. lia. Qed.
End ListSums.

Lemma lsum_map {A B} (f : B -> nat) (h : A -> B) (l : list A) :
  lsum f (map h l) = lsum (fun x => f (h x)) l.
Proof. induction l as [|x r IH]; cbn [lsum map]; [reflexivity|]. rewrite IH; reflexivity. Qed.

Lemma lsum_flat_map {A B} (f : B -> nat) (h : A -> list B) (l : list A) :
  lsum f (flat_map h l) = lsum (fun x => lsum f (h x)) l.
Proof. induction l as [|x r IH]; cbn [lsum flat_map]; [reflexivity|]. rewrite lsum_app, IH; reflexivity. Qed.

Lemma lsum_perm {A} (f : A -> nat) l l' : Permutation l l' -> lsum f l = lsum f l'.
Proof. induction 1; cbn [lsum]; lia. Qed.

Section Groups.
  Context {K V : Type} (keqb : K -> K -> bool).
  Implicit Types (F : V -> nat) (g : list (K * list V)).

  Notation tot F g := (lsum (fun kv : K * list V => lsum F (snd kv)) g).

  Lemma group_by_key_total F (key : V -> K) l : tot F (group_by_key keqb key l) = lsum F l.
  Proof.
    rewrite <- lsum_flat_map. apply lsum_perm, (proj1 (group_by_key_spec keqb key l)).
  Qed.

  Lemma groups_members (key : V -> K) g :
    grouped keqb key g ->
    length g + (if all_singletons g then 0 else 1) <= tot (fun _ => 1) g.
  Proof.
    unfold all_singletons. induction 1 as [|[k vs] r [Hx _] Hr IH]; [cbn; lia|].
    cbn [forallb length lsum snd] in *. rewrite lsum_const.
    destruct vs; [contradiction|]. cbn [length] in *.
    destruct (Nat.leb_spec (S (length vs)) 1), (forallb _ r); cbn [andb]; lia.
  Qed.

  Lemma group_by_key_fewer (key : V -> K) l :
    all_singletons (group_by_key keqb key l) = false ->
    length (group_by_key keqb key l) < length l.
  Proof.
    intros H. pose proof (groups_members key _ (proj2 (group_by_key_spec keqb key l))) as H1.
    rewrite H, group_by_key_total, lsum_const in H1. lia.
  Qed.
End Groups.

Section Measure.
  Context {T : Type} (N : NumOps T).
  Notation E := (expr T).

  Section NodeSum.
    Variable g : E -> nat.
    Fixpoint ns (e : E) : nat :=
      g e + match e with
            | Const _ | Var _ => 0
            | Add l | Mul l => lsum ns l
            | Minus a b | Divide a b | Power a b => ns a + ns b
            | Neg a | Recip a | Sin a | Cos a | NthPow a _ | NthRoot a _ | Exp a _ | Log a _ =>
                ns a
            end.
  End NodeSum.

  Definition g1 (e : E) : nat := match e with Power _ _ => 1 | _ => 0 end.
  Definition g2 (e : E) : nat :=
    match e with Power _ _ | NthPow _ _ | NthRoot _ _ | Exp _ _ | Log _ _ => 1 | _ => 0 end.
  Definition g3 (e : E) : nat :=
    match e with NthPow _ n | NthRoot _ n => Pos.to_nat n | _ => 0 end.

  (** Every rule that leaves the three counts alone must make the tree lighter.  [Neg] and
      [Recip] multiply the weight below them, so a sign or a reciprocal that moves to the operands
      of a node, or from below a node to above it, makes the tree lighter; [Power] and [Exp]
      square it, so a [Neg] or [Recip] below counts for more than above.
      [Minus a b -> Add [a; Neg b]] needs 12 > 2 * 3 + 2 + 3, [Divide a b -> Mul [a; Recip b]]
      needs 8 > 2 * 2 + 2 + 1, a root of a power becoming a power of a root needs
      2 * (4 W + 1) > 4 * 2 W + 1. *)
  Fixpoint W (e : E) : nat :=
    match e with
    | Const _ | Var _ => 1
    | Add l => lsum W l + 3 * length l + 2
    | Mul l => lsum W l + 2 * length l + 2
    | Minus a b => W a + 2 * W b + 12
    | Divide a b => W a + 3 * W b + 8
    | Power a b => W a * W a * (W b * W b) + 1
    | Neg a => 2 * W a + 3
    | Recip a => 3 * W a + 1
    | Sin a | Cos a | NthRoot a _ | Log a _ => 2 * W a
    | NthPow a _ => 4 * W a + 1
    | Exp a _ => W a * W a + 1
    end.

  Definition mu (e : E) : nat * nat * nat * nat := (ns g1 e, ns g2 e, ns g3 e, W e).
  Definition lt_mu := lt4.

  Definition rule_decreases (r : @rule T) : Prop :=
    forall e e', snd r e = Some e' -> lt4 (mu e') (mu e).

  Lemma W_pos e : 1 <= W e.
  Proof. induction e; cbn [W]; lia. Qed.

  Lemma lsumW_ge l : length l <= lsum W l.
  Proof. apply lsum_ge_length, W_pos. Qed.

  Lemma mu_nary s (l : list E) :
    mu (nary s l) = (lsum (ns g1) l, lsum (ns g2) l, lsum (ns g3) l,
                     lsum W l + (if s then 3 else 2) * length l + 2).
  Proof. destruct s; reflexivity. Qed.

  (** [crunch] computes the measure of a concrete tree down to sums over its unknown parts. *)
  Ltac crunch :=
    unfold mu; cbn [nary ns g1 g2 g3 W lsum length];
    rewrite ?lsum_app, ?app_length, ?map_length; cbn [ns g1 g2 g3 W lsum length].
  Ltac wpos :=
    repeat match goal with
           | |- context [W ?a] =>
               lazymatch goal with
               | _ : 1 <= W a |- _ => fail
               | _ => pose proof (W_pos a)
               end
           end.

  Lemma mu_nary_flatten s (p : E -> bool) l b nested a :
    split_first p l = Some (b, nary s nested, a) ->
    lt4 (mu (nary s (b ++ nested ++ a))) (mu (nary s l)).
  Proof. intros [-> _]%split_first_spec. destruct s; crunch; apply lt4_4; lia. Qed.

  Lemma mu_nary_replace s (p : E -> bool) l new :
    lt4 (mu (nary s new)) (mu (nary s (filter p l))) ->
    lt4 (mu (nary s (filter (fun x => negb (p x)) l ++ new))) (mu (nary s l)).
  Proof.
    rewrite !mu_nary, !lsum_app, app_length.
    rewrite <- !(lsum_partition _ p l), <- (length_partition p l). unfold lt4. destruct s; lia.
  Qed.

  Lemma mu_nary_consts s (p : E -> bool) l (cs : list T) :
    length cs < length (filter p l) ->
    lt4 (mu (nary s (filter (fun x => negb (p x)) l ++ map Const cs))) (mu (nary s l)).
  Proof.
    intros Hlen. apply mu_nary_replace. pose proof (lsumW_ge (filter p l)).
    rewrite !mu_nary, !(lsum_map _ Const). cbn [ns g1 g2 g3 W].
    rewrite !lsum_const, map_length. apply lt4_4; destruct s; lia.
  Qed.

  Lemma mu_nary_drop s (p : E -> bool) l :
    length (filter (fun x => negb (p x)) l) <> length l ->
    lt4 (mu (nary s (filter (fun x => negb (p x)) l))) (mu (nary s l)).
  Proof.
    intros Hne. rewrite <- (app_nil_r (filter _ l)). apply (mu_nary_consts s p l []).
    pose proof (length_partition p l). cbn [length]. lia.
  Qed.

  Lemma group_rule {K} (keqb : K -> K -> bool) (key : E -> K) (wrap : K * list E -> E)
        (g : E -> nat) (h : nat) hits :
    (forall x, In x hits -> ns g x = h + ns g (inner_of x)) ->
    (forall kv, ns g (wrap kv) = h + lsum (ns g) (map inner_of (snd kv))) ->
    lsum (ns g) (map wrap (group_by_key keqb key hits)) + h * length hits
    = lsum (ns g) hits + h * length (group_by_key keqb key hits).
  Proof.
    intros Hp Hw. rewrite lsum_map.
    rewrite (lsum_affine 1 h _ (fun kv => lsum (fun x => ns g (inner_of x)) (snd kv))
                         (group_by_key keqb key hits))
      by (intros kv _; rewrite Hw, lsum_map; lia).
    rewrite group_by_key_total.
    rewrite (lsum_affine 1 h (ns g) (fun x => ns g (inner_of x)) hits)
      by (intros x Hx; rewrite (Hp x Hx); lia).
    lia.
  Qed.

  Lemma mu_nary_group {K} s (keqb : K -> K -> bool) (key : E -> K) (wrap : K * list E -> E) hits :
    (forall x, In x hits ->
               ns g1 x = ns g1 (inner_of x) /\ ns g2 x = 1 + ns g2 (inner_of x)) ->
    (forall kv, ns g1 (wrap kv) = lsum (ns g1) (map inner_of (snd kv)) /\
                ns g2 (wrap kv) = 1 + lsum (ns g2) (map inner_of (snd kv))) ->
    all_singletons (group_by_key keqb key hits) = false ->
    lt4 (mu (nary s (map wrap (group_by_key keqb key hits)))) (mu (nary s hits)).
  Proof.
    intros Hp Hw Hs.
    pose proof (group_rule keqb key wrap g1 0 hits
                           (fun x Hx => proj1 (Hp x Hx)) (fun kv => proj1 (Hw kv))).
    pose proof (group_rule keqb key wrap g2 1 hits
                           (fun x Hx => proj2 (Hp x Hx)) (fun kv => proj2 (Hw kv))).
    pose proof (group_by_key_fewer keqb key hits Hs).
    rewrite !mu_nary. apply lt4_2; lia.
  Qed.

  Lemma lsum_map_ns g (C : E -> E) l :
    (forall x, ns g (C x) = ns g x) -> lsum (ns g) (map C l) = lsum (ns g) l.
  Proof. intros H. rewrite lsum_map. apply lsum_ext_in. intros x _. apply H. Qed.

  Lemma lsum_map_W (C : E -> E) (a b : nat) l :
    (forall x, W (C x) = a * W x + b) ->
    lsum W (map C l) = a * lsum W l + b * length l.
  Proof.
    intros H. rewrite lsum_map. apply lsum_affine. intros x _. apply H.
  Qed.

  Lemma mu_strip_negations l (c : list T) :
    filter is_Neg l <> [] -> length c <= 1 ->
    lt4 (mu (Mul (filter (fun x => negb (is_Neg x)) l ++
                  map inner_of (filter is_Neg l) ++ map Const c)))
        (mu (Mul l)).
  Proof.
    intros Hne Hc. apply (mu_nary_replace false).
    rewrite (filter_shape is_Neg Neg l (@is_Neg_shape T)) at 2.
    assert (map inner_of (filter is_Neg l) <> []) by (destruct (filter is_Neg l); [congruence | discriminate]).
    generalize dependent (map inner_of (filter is_Neg l)). intros us Hus. clear Hne.
    pose proof (lsumW_ge us). assert (1 <= length us) by (destruct us; [congruence | cbn [length]; lia]).
    crunch. rewrite !(lsum_map_ns _ Neg) by (intros; cbn [ns g1 g2 g3]; lia).
    rewrite (lsum_map_W Neg 2 3) by (intros; cbn [W]; lia).
    rewrite !(lsum_map _ Const). cbn [ns g1 g2 g3 W]. rewrite !lsum_const.
    apply lt4_4; lia.
  Qed.

  (** ** The rules, class by class

      Which lemma closes a rule says why it terminates.  [lt4_1]: a [Power] node goes.
      [lt4_2]: a node among [NthPow], [NthRoot], [Exp], [Log] goes (it had no effect, two of
      them cancel, or a grouping rule merges several).  [lt4_3]: the same nodes with smaller
      exponents.  [lt4_4]: the same such nodes in a lighter tree.  Each side condition has its own
      [lia]: all four components in one call cost several times more to check. *)

  (* With a [match] on the rule's result the cases in which the rule does not fire close by [I];
     refuting their equations one by one costs several times more to check. *)
  Lemma rule_decreases_match nm (f : E -> option E) :
    (forall e, match f e with Some e' => lt4 (mu e') (mu e) | None => True end) ->
    rule_decreases (nm, f).
  Proof. intros H e e' Hf. specialize (H e). cbn [snd] in Hf. rewrite Hf in H. exact H. Qed.

  (** [open_rule] brings [rule_decreases (name, rule)] to the cases in which the rule fires: it
      analyses the innermost scrutinee that blocks the [match] for as long as there is one. *)
  Ltac open_rule :=
    let rec stuck t := lazymatch t with match ?x with _ => _ end => stuck x | _ => t end in
    let e := fresh "e" in
    apply rule_decreases_match; intros e;
    lazymatch goal with
    | |- match ?t with _ => _ end => let t' := eval hnf in t in change t with t'
    end;
    repeat (cbv beta iota zeta delta [partition_by];
            lazymatch goal with
            | |- match ?t with _ => _ end =>
                let x := stuck t in
                first [is_var x; destruct x | destruct x eqn:?]; try exact I
            end).
  Ltac open_rules :=
    repeat apply Forall_cons;
    [open_rule; unfold mu; cbn [ns g1 g2 g3 W lsum length] .. | apply Forall_nil].
  Ltac grouping_rule s :=
    apply (mu_nary_replace s), mu_nary_group;
    [intros x Hx; apply filter_In in Hx; destruct Hx as [_ Hx]; destruct x; try discriminate Hx
    | intros kv | assumption];
    cbn [ns g1 g2 inner_of]; lia.

  Lemma decrease_Add : Forall rule_decreases (reducers_Add N).
  Proof.
    repeat apply Forall_cons; [open_rule .. | apply Forall_nil].
    - eapply (mu_nary_flatten true). eassumption.
    - apply (mu_nary_drop true), Nat.eqb_neq. assumption.
    - grouping_rule true.
    - apply (mu_nary_consts true is_Const _ [_]), Nat.leb_gt. assumption.
  Qed.

  Lemma decrease_Minus : Forall rule_decreases (@reducers_Minus T).
  Proof. open_rules. apply lt4_4; lia. Qed.

  Lemma decrease_Negation : Forall rule_decreases (@reducers_Negation T).
  Proof.
    open_rules.
    - apply lt4_4; lia.
    - crunch. rewrite !(lsum_map_ns _ Neg) by (intros; cbn [ns g1 g2 g3]; lia).
      rewrite (lsum_map_W Neg 2 3) by (intros; cbn [W]; lia).
      apply lt4_4; lia.
  Qed.

  Lemma mu_product_by_eliminating_negations e e' :
    reduce_product_by_eliminating_negations N e = Some e' -> lt4 (mu e') (mu e).
  Proof.
    unfold reduce_product_by_eliminating_negations, partition_by. destruct e; try discriminate.
    cbv beta iota. destruct (filter is_Neg l) as [|n0 negs] eqn:En; [discriminate|].
    rewrite <- En. assert (Hne : filter is_Neg l <> []) by (rewrite En; discriminate).
    destruct (Nat.even _); intros [= <-].
    - rewrite <- (app_nil_r (map inner_of _)). exact (mu_strip_negations l [] Hne (Nat.le_0_l _)).
    - exact (mu_strip_negations l [nm1 N] Hne (le_n _)).
  Qed.

  Lemma decrease_Multiply : Forall rule_decreases (reducers_Multiply N).
  Proof.
    repeat apply Forall_cons; [.. | apply Forall_nil].
    - open_rule. eapply (mu_nary_flatten false). eassumption.
    - open_rule. crunch. apply lt4_4; lia.
    - open_rule. apply (mu_nary_drop false), Nat.eqb_neq. assumption.
    - exact mu_product_by_eliminating_negations.
    - open_rule. grouping_rule false.
    - open_rule. grouping_rule false.
    - open_rule. grouping_rule false.
    - open_rule. apply (mu_nary_consts false is_Const _ [_]), Nat.leb_gt. assumption.
  Qed.

  Lemma decrease_Divide : Forall rule_decreases (@reducers_Divide T).
  Proof. open_rules. apply lt4_4; lia. Qed.

  Lemma decrease_Reciprocal : Forall rule_decreases (@reducers_Reciprocal T).
  Proof.
    open_rules.
    - apply lt4_4; lia.
    - apply lt4_4; lia.
    - crunch. rewrite !(lsum_map_ns _ Recip) by (intros; cbn [ns g1 g2 g3]; lia).
      rewrite (lsum_map_W Recip 3 1) by (intros; cbn [W]; lia).
      apply lt4_4; lia.
  Qed.

  Lemma decrease_Power : Forall rule_decreases (reducers_Power N).
  Proof.
    open_rules.
    1-7: apply lt4_1; lia.
    all: apply lt4_4; [wpos|..]; lia.
  Qed.

  Lemma div_gcd_lt (m g : positive) :
    (g | m)%positive -> g <> 1%positive ->
    Pos.to_nat (Z.to_pos (Zpos m / Zpos g)) < Pos.to_nat m.
  Proof.
    intros [k ->] Hg. rewrite Pos2Z.inj_mul, Z.div_mul by discriminate.
    rewrite Pos2Z.id, Pos2Nat.inj_mul.
    pose proof (Pos2Nat.is_pos k). assert (2 <= Pos.to_nat g) by lia. nia.
  Qed.

  Lemma decrease_NthPower : Forall rule_decreases (reducers_NthPower N).
  Proof.
    open_rules.
    - apply lt4_2; lia.
    - apply lt4_2; lia.
    - match goal with Eg : Pos.eqb (Pos.gcd ?m ?n) 1 = false |- _ =>
        apply Pos.eqb_neq in Eg;
        pose proof (div_gcd_lt m _ (Pos.gcd_divide_l m n) Eg);
        pose proof (div_gcd_lt n _ (Pos.gcd_divide_r m n) Eg)
      end.
      apply lt4_3; lia.
    - apply lt4_2; lia.
    - apply lt4_4; lia.
    - apply lt4_4; lia.
    - apply lt4_4; lia.
    - apply lt4_2; lia.
  Qed.

  Lemma decrease_NthRoot : Forall rule_decreases (@reducers_NthRoot T).
  Proof.
    open_rules.
    - apply lt4_2; lia.
    - apply lt4_4; lia.
    - apply lt4_2; lia.
    - apply lt4_4; lia.
    - apply lt4_4; lia.
  Qed.

  Lemma decrease_Exponential : Forall rule_decreases (reducers_Exponential N).
  Proof.
    open_rules.
    - apply lt4_2; lia.
    - apply lt4_4; lia.
  Qed.

  Lemma decrease_Logarithm : Forall rule_decreases (reducers_Logarithm N).
  Proof.
    open_rules.
    - apply lt4_2; lia.
    - apply lt4_4; [wpos|..]; lia.
    - apply lt4_2; lia.
  Qed.

  Lemma decrease_Cosine : Forall rule_decreases (@reducers_Cosine T).
  Proof. open_rules. apply lt4_4; lia. Qed.

  Lemma decrease_Sine : Forall rule_decreases (@reducers_Sine T).
  Proof. open_rules. apply lt4_4; lia. Qed.

  #[local] Hint Resolve decrease_Add decrease_Minus decrease_Negation decrease_Multiply
    decrease_Divide decrease_Reciprocal decrease_Power decrease_NthPower decrease_NthRoot
    decrease_Exponential decrease_Logarithm decrease_Cosine decrease_Sine : decrease.

  Lemma all_rules_decrease : Forall rule_decreases (all_rules N).
  Proof. unfold all_rules. repeat (apply Forall_app; split); auto with decrease. Qed.

  Lemma all_rules_length : length (all_rules N) = 46.
  Proof. reflexivity. Qed.

  Lemma mu_rules_at e lab e' : rules_at N e = Some (lab, e') -> lt4 (mu e') (mu e).
  Proof.
    unfold rules_at, apply_reducers.
    destruct (first_reducer (reducers_of N e) e) as [[nm x]|] eqn:Ea; [|discriminate].
    intros [= _ <-]. destruct (first_reducer_in _ _ _ _ Ea) as (f & Hin & Hf).
    exact (proj1 (Forall_forall _ _) all_rules_decrease _ (reducers_of_all N e _ Hin) _ _ Hf).
  Qed.

  Lemma lt4_bottom a b c d : 2 <= d -> lt4 (0, 0, 0, 1) (a, b, c, d).
  Proof. cbn; lia. Qed.

  Lemma mu_consolidate e c : consolidate N e = Some c -> lt4 (mu c) (mu e).
  Proof.
    unfold consolidate. destruct (var_free e); [|discriminate].
    destruct e; try discriminate; (destruct (eval N [] _); try discriminate);
      intros [= <-]; apply lt4_bottom; cbn [W]; wpos; lia.
  Qed.

  (** ** Context closure and the main theorem *)

  Lemma step_list_spec l :
    match step_list N l with
    | Some (lab, l') =>
        exists b x x' a, l = b ++ x :: a /\ l' = b ++ x' :: a /\ step_named N x = Some (lab, x')
    | None => forall x, In x l -> step_named N x = None
    end.
  Proof.
    induction l as [|y r IH]; cbn [step_list]; [intros x []|].
    destruct (step_named N y) as [[lab y']|] eqn:Ey; [exists [], y, y', r; auto|].
    destruct (step_list N r) as [[lab r']|].
    - destruct IH as (b & x & x' & a & -> & -> & Hx). exists (y :: b), x, x', a. auto.
    - intros x [<- | Hx]; [exact Ey | exact (IH x Hx)].
  Qed.

  Lemma ns_children g e : ns g e = g e + lsum (ns g) (echildren e).
  Proof. destruct e; cbn [ns echildren lsum]; rewrite ?Nat.add_0_r; reflexivity. Qed.

  Lemma erebuild_local e l :
    length l = length (echildren e) ->
    echildren (erebuild e l) = l /\
    g1 (erebuild e l) = g1 e /\ g2 (erebuild e l) = g2 e /\ g3 (erebuild e l) = g3 e.
  Proof.
    destruct e; cbn [echildren length]; intros H;
      try (destruct l as [|? [|? [|? ?]]]; try discriminate H); repeat split.
  Qed.

  Lemma W_context e b x x' a :
    echildren e = b ++ x :: a -> W x' < W x -> W (erebuild e (b ++ x' :: a)) < W e.
  Proof.
    intros Hc Hlt. pose proof (proj1 (Nat.square_lt_mono _ _) Hlt) as Hsq.
    destruct e; cbn [echildren] in Hc.
    1-2: destruct b; discriminate Hc.
    1-2: subst l; cbn [erebuild W]; rewrite !lsum_app, !app_length; cbn [lsum length]; lia.
    all: destruct b as [|? [|? [|? ?]]]; try discriminate Hc; injection Hc; intros; subst.
    all: cbn [erebuild app W]; try lia.
    (* [Power], [Exp]: a product of squares *)
    all: wpos; nia.
  Qed.

  Lemma mu_context e b x x' a :
    echildren e = b ++ x :: a -> lt4 (mu x') (mu x) ->
    lt4 (mu (erebuild e (b ++ x' :: a))) (mu e).
  Proof.
    intros Hc Hlt. pose proof (W_context e b x x' a Hc).
    destruct (erebuild_local e (b ++ x' :: a)) as (Hc' & H1 & H2 & H3).
    { rewrite Hc, !app_length. reflexivity. }
    unfold mu in *. rewrite !(ns_children _ e), !(ns_children _ (erebuild _ _)).
    rewrite Hc', Hc, H1, H2, H3, !lsum_app. cbn [lsum]. unfold lt4 in *. lia.
  Qed.

  Theorem step_named_decreases e lab e' :
    step_named N e = Some (lab, e') -> lt4 (mu e') (mu e).
  Proof.
    revert lab e'. induction e as [e IH] using expr_ind_ch. intros lab e' H.
    rewrite step_named_unfold in H.
    destruct (consolidate N e) as [c|] eqn:Ec.
    { injection H as _ <-. exact (mu_consolidate _ _ Ec). }
    destruct (step_list N (echildren e)) as [[lab1 l']|] eqn:El; [|exact (mu_rules_at _ _ _ H)].
    injection H as _ <-. pose proof (step_list_spec (echildren e)) as Hs. rewrite El in Hs.
    destruct Hs as (b & x & x' & a & Hc & -> & Hx).
    apply (mu_context e b x x' a Hc).
    rewrite Hc in IH. exact (proj1 (Forall_forall _ _) IH x (in_elt x b a) _ _ Hx).
  Qed.

  Theorem step_decreases e e' : step N e = Some e' -> lt_mu (mu e') (mu e).
  Proof.
    unfold step, lt_mu. destruct (step_named N e) as [[lab x]|] eqn:Es; [|discriminate].
    intros [= <-]. exact (step_named_decreases _ _ _ Es).
  Qed.
End Measure.

Theorem terminates : C11_terminates.
Proof.
  unfold C11_terminates.
  intros e.
  induction e as [e IH]
    using (well_founded_induction (Inverse_Image.wf_inverse_image _ _ lt4 mu lt4_wf)).
  destruct (step RInst e) as [e'|] eqn:Es.
  - destruct (IH e' (step_decreases RInst e e' Es)) as [fuel Hf].
    exists (S fuel). cbn [fully_reduce]. rewrite Es. exact Hf.
  - exists 0. exact Es.
Qed.

Lemma iter_step_decreases k : forall a b,
  iter_step (S k) a = Some b -> lt4 (mu b) (mu a).
Proof.
  induction k as [|k IH]; intros a b H; cbn [iter_step] in H;
    destruct (step RInst a) as [a'|] eqn:Es; try discriminate H.
  - injection H as <-. exact (step_decreases RInst _ _ Es).
  - eapply lt4_trans; [exact (IH _ _ H) | exact (step_decreases RInst _ _ Es)].
Qed.

Theorem no_revisit : C11_no_revisit.
Proof.
  unfold C11_no_revisit. intros e a b i. revert e.
  induction i as [|i IH]; intros e [|j] Hij Hi Hj; try lia; cbn [iter_step] in Hi.
  - injection Hi as <-. intros <-. exact (lt4_irrefl _ (iter_step_decreases _ _ _ Hj)).
  - cbn [iter_step] in Hj. destruct (step RInst e) as [e'|]; [|discriminate Hi].
    apply (IH e' j); [lia | exact Hi | exact Hj].
Qed.

Lemma subterms_children (e : expr R) : subterms e = e :: flat_map subterms (echildren e).
Proof. destruct e; cbn [subterms echildren flat_map]; rewrite ?app_nil_r; reflexivity. Qed.

Lemma step_named_none_rule_free (e : expr R) :
  step_named RInst e = None ->
  forall s, In s (subterms e) -> apply_reducers RInst s = None /\ consolidate RInst s = None.
Proof.
  induction e as [e IH] using expr_ind_ch. intros H s Hs. rewrite step_named_unfold in H.
  destruct (consolidate RInst e) as [c|] eqn:Ec; [discriminate H|].
  destruct (step_list RInst (echildren e)) as [[lab l']|] eqn:El; [discriminate H|].
  rewrite subterms_children in Hs. destruct Hs as [<- | Hs].
  - split; [|exact Ec]. unfold rules_at in H.
    destruct (apply_reducers RInst e) as [[nm x]|]; [discriminate H | reflexivity].
  - apply in_flat_map in Hs. destruct Hs as [x [Hx Hsx]].
    pose proof (step_list_spec RInst (echildren e)) as Hn. rewrite El in Hn.
    exact (proj1 (Forall_forall _ _) IH x Hx (Hn x Hx) s Hsx).
Qed.

Theorem rule_free : C11_rule_free.
Proof.
  unfold C11_rule_free. intros e H. apply step_named_none_rule_free.
  unfold step in H. destruct (step_named RInst e) as [[lab x]|]; [discriminate H | reflexivity].
Qed.

Example ex_step :
  step RInst (Neg (Neg (Var 1%positive))) = Some (Var 1%positive).
Proof. reflexivity. Qed.

Example ex_no_revisit_premises :
  let e : expr R := Minus (Var 1%positive) (Neg (Var 2%positive)) in
  iter_step 0 e = Some e /\
  iter_step 2 e = Some (Add [Var 1%positive; Var 2%positive]) /\
  iter_step 3 e = None.
Proof. repeat split; reflexivity. Qed.

Example ex_rule_free_premise :
  step RInst (Add [Var 1%positive; Mul [Var 2%positive; Sin (Var 1%positive)]]) = None.
Proof. reflexivity. Qed.

Print Assumptions step_decreases.
Print Assumptions terminates.
Print Assumptions no_revisit.
Print Assumptions rule_free.
