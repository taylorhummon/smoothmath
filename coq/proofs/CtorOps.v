(** Operator overloads (C15) and constructor validation (C16) of Objects.v. *)
From Coq Require Import Reals ZArith List Bool String Lia Lra.
From SM Require Import Num Syntax Eval RInst Objects SpecObjects.
Import ListNotations.

Lemma as_expr_spec {T} (a : pyarg (T:=T)) (e : expr T) : as_expr a = Ok e <-> a = AExpr e.
Proof. destruct a; cbn [as_expr]; split; intro H; inversion H; reflexivity. Qed.

(* [i <= 0] of the source, read as "not [1 <= i]" *)
Lemma checked_n_num {T} (N : NumOps T) (x : T) :
  checked_n N (ANum x) =
  match nint N x with
  | Some z => if Z.leb 1 z then Ok (Z.to_pos z) else Raises
  | None => Raises
  end.
Proof.
  cbn [checked_n]. destruct (nint N x) as [z|]; [|reflexivity].
  destruct (Z.leb_spec z 0), (Z.leb_spec 1 z); try reflexivity; lia.
Qed.

Lemma checked_n_spec {T} (N : NumOps T) (n : pyarg (T:=T)) (i : positive) :
  checked_n N n = Ok i <->
  exists x z, n = ANum x /\ nint N x = Some z /\ (1 <= z)%Z /\ i = Z.to_pos z.
Proof.
  split.
  - destruct n as [e|x|lg s|]; try discriminate. rewrite checked_n_num.
    destruct (nint N x) as [z|] eqn:E; [|discriminate].
    destruct (Z.leb_spec 1 z); [|discriminate]. intros [= <-]. eauto 6.
  - intros (x & z & -> & E & Hz & ->). rewrite checked_n_num, E.
    apply Z.leb_le in Hz. rewrite Hz. reflexivity.
Qed.

Theorem operators : C15_operators.
Proof.
  unfold C15_operators; intros T N a b.
  repeat split; reflexivity.
Qed.

Theorem pow_integer : C15_pow_integer.
Proof.
  unfold C15_pow_integer; intros T N a x.
  unfold op_pow, mk_nth_power. rewrite checked_n_num.
  destruct (nint N x) as [z|]; [destruct (Z.leb 1 z)|]; reflexivity.
Qed.

Theorem rejects : C15_rejects.
Proof.
  unfold C15_rejects; intros T N a x Hx.
  destruct x as [e|y|lg s|]; [exfalso; apply (Hx e); reflexivity| | |];
    repeat split; try reflexivity.
  intros Hy; exfalso; apply (Hy y); reflexivity.
Qed.

(* non-vacuity: x ** e for an expression exponent e at R (the integer exponents of
   [pow_integer] are not exercised) *)
Example pow_integer_ex :
  op_pow RInst (Var 1%positive) (AExpr (Const 2%R)) = Ok (Power (Var 1%positive) (Const 2%R)).
Proof. reflexivity. Qed.

Lemma nth_spec {T} (N : NumOps T) (f : expr T -> positive -> expr T) (a n : pyarg (T:=T)) e :
  match checked_n N n, as_expr a with Ok i, Ok u => Ok (f u i) | _, _ => Raises end = Ok e <->
  exists u x z, a = AExpr u /\ n = ANum x /\ nint N x = Some z /\ (1 <= z)%Z /\
                e = f u (Z.to_pos z).
Proof.
  split.
  - destruct (checked_n N n) as [i|] eqn:En; [|discriminate].
    apply checked_n_spec in En. destruct En as (x & z & -> & E & Hz & ->).
    destruct (as_expr a) as [u|] eqn:Ea; [|discriminate]. apply as_expr_spec in Ea.
    intros [= <-]. eauto 9.
  - intros (u & x & z & -> & -> & E & Hz & ->).
    rewrite (proj2 (checked_n_spec N (ANum x) (Z.to_pos z))) by eauto 6. reflexivity.
Qed.

Theorem ctor_nth : C16_nth.
Proof.
  unfold C16_nth; intros T N a n e; split; [apply (nth_spec N NthPow) | apply (nth_spec N NthRoot)].
Qed.

Theorem ctor_base : C16_base.
Proof.
  unfold C16_base; intros T N a b e; split.
  - unfold mk_exponential; split.
    + destruct a as [u|y|lg s|]; simpl; try discriminate.
      destruct b as [u'|x|lg s|]; try discriminate.
      destruct (nleb N x (n0 N)) eqn:El; try discriminate.
      intros H; injection H as <-.
      exists u, x; repeat split; auto.
    + intros (u & x & -> & -> & El & ->); simpl.
      rewrite El; reflexivity.
  - unfold mk_logarithm; split.
    + destruct a as [u|y|lg s|]; simpl; try discriminate.
      destruct b as [u'|x|lg s|]; try discriminate.
      destruct (nleb N x (n0 N)) eqn:El; try discriminate.
      destruct (neqb N x (n1 N)) eqn:E1; try discriminate.
      intros H; injection H as <-.
      exists u, x; repeat split; auto.
    + intros (u & x & -> & -> & El & E1 & ->); simpl.
      rewrite El, E1; reflexivity.
Qed.

Lemma all_exprs_spec {T} (l : list (pyarg (T:=T))) (es : list (expr T)) :
  all_exprs l = Ok es <-> l = map (@AExpr T) es.
Proof.
  split.
  - revert es. induction l as [|[u|y|lg s|] r IH]; intro es; cbn [all_exprs as_expr];
      try discriminate.
    + intros [= <-]. reflexivity.
    + destruct (all_exprs r) as [es'|]; [|discriminate].
      intros [= <-]. cbn [map]. f_equal. apply IH. reflexivity.
  - intros ->. induction es as [|u us IH]; cbn [map all_exprs as_expr]; [|rewrite IH]; reflexivity.
Qed.

Theorem ctor_operands : C16_operands.
Proof.
  unfold C16_operands; intros T f g h a b l e.
  split; [|split; [|split]].
  - unfold mk_unary; split.
    + destruct a as [u|y|lg s|]; simpl; try discriminate.
      intros H; injection H as <-; exists u; auto.
    + intros (u & -> & ->); reflexivity.
  - unfold mk_binary; split.
    + destruct a as [u|y|lg s|]; simpl; try discriminate;
        destruct b as [w|y'|lg' s'|]; simpl; try discriminate.
      intros H; injection H as <-; exists u, w; auto.
    + intros (u & w & -> & -> & ->); reflexivity.
  - unfold mk_nary; split.
    + destruct (all_exprs l) as [es|] eqn:El; try discriminate.
      intros H; injection H as <-.
      apply all_exprs_spec in El; exists es; auto.
    + intros (us & Hl & ->).
      apply all_exprs_spec in Hl; rewrite Hl; reflexivity.
  - unfold mk_variable; split.
    + destruct a as [u|y|lg s|]; try discriminate.
      destruct lg; try discriminate.
      intros H; injection H as <-; exists s; auto.
    + intros (x & -> & ->); reflexivity.
Qed.

Lemma nleb_R_false (x : R) : nleb RInst x (n0 RInst) = false -> Rltb 0 x = true.
Proof.
  unfold nleb, n0; simpl.
  intros H; apply orb_false_iff in H; destruct H as [Hlt Heq].
  apply Rltb_false in Hlt; apply Reqb_false in Heq.
  apply Rltb_true; lra.
Qed.

Theorem built_wf : C16_built_wf.
Proof.
  unfold C16_built_wf; intros a b e Ha.
  split; [|split; [|split]].
  - intros H; apply (proj1 (ctor_nth R RInst a b e)) in H.
    destruct H as (u & x & z & -> & -> & E & Hz & ->); simpl.
    apply Ha; reflexivity.
  - intros H; apply (proj2 (ctor_nth R RInst a b e)) in H.
    destruct H as (u & x & z & -> & -> & E & Hz & ->); simpl.
    apply Ha; reflexivity.
  - intros H; apply (proj1 (ctor_base R RInst a b e)) in H.
    destruct H as (u & x & -> & -> & El & ->).
    cbn [wf]; split; [exact (nleb_R_false x El) | apply Ha; reflexivity].
  - intros H; apply (proj2 (ctor_base R RInst a b e)) in H.
    destruct H as (u & x & -> & -> & El & E1 & ->).
    cbn [wf]; split; [exact (nleb_R_false x El) | split; [exact E1 | apply Ha; reflexivity]].
Qed.

Example built_wf_ex :
  mk_exponential RInst (AExpr (Var 1%positive)) (ANum 2%R) = Ok (Exp (Var 1%positive) 2%R) /\
  mk_exponential RInst (AExpr (Var 1%positive)) (ANum 0%R) = Raises.
Proof.
  unfold mk_exponential, nleb, n0; simpl; split.
  - replace (Rltb 2 0) with false by (symmetry; apply Rltb_false; lra).
    replace (Reqb 2 0) with false by (symmetry; apply Reqb_false; lra).
    reflexivity.
  - replace (Reqb 0 0) with true by (symmetry; apply Reqb_true; reflexivity).
    rewrite orb_true_r; reflexivity.
Qed.

Print Assumptions operators.
Print Assumptions pow_integer.
Print Assumptions rejects.
Print Assumptions ctor_nth.
Print Assumptions ctor_base.
Print Assumptions ctor_operands.
Print Assumptions built_wf.
