(** __eq__ / __hash__ of expressions, points and the derivative objects (C12): == is an
    equivalence when number comparison is one, and objects that are == hash alike. *)
From Coq Require Import Reals ZArith List Bool String Permutation Sorted Lia.
From SM Require Import Num Syntax Eval RInst Objects SpecObjects.
From SM.proofs Require Import SyntaxFacts.
Import ListNotations.

Theorem RInst_equiv : C12_RInst_equiv.
Proof.
  unfold C12_RInst_equiv, num_equiv; simpl; repeat split.
  - intros x; apply Reqb_true; reflexivity.
  - intros x y. unfold Reqb.
    destruct (Req_EM_T x y) as [E|E], (Req_EM_T y x) as [E'|E']; congruence.
  - intros x y z H1 H2. apply Reqb_true in H1; apply Reqb_true in H2.
    apply Reqb_true; congruence.
Qed.

Section NumEquiv.
  Context {T : Type} {N : NumOps T} (HN : num_equiv N).
  Lemma num_refl x : neqb N x x = true.
  Proof. apply HN. Qed.
  Lemma num_trans x y z : neqb N x y = true -> neqb N y z = true -> neqb N x z = true.
  Proof. apply HN. Qed.
  Lemma num_flip x y : neqb N x y = true -> neqb N y x = true.
  Proof. destruct HN as (_ & Hsym & _). rewrite (Hsym y x). auto. Qed.
End NumEquiv.

Section Forall2In.
  Context {A : Type} (R : A -> A -> Prop).

  Lemma Forall2_refl_in l : Forall (fun a => R a a) l -> Forall2 R l l.
  Proof. induction 1; constructor; assumption. Qed.

  Lemma Forall2_sym_in l :
    Forall (fun a => forall b, R a b -> R b a) l -> forall l', Forall2 R l l' -> Forall2 R l' l.
  Proof. intros H l' H2. induction H2; inversion H; subst; constructor; auto. Qed.

  Lemma Forall2_trans_in l :
    Forall (fun a => forall b c, R a b -> R b c -> R a c) l ->
    forall l' l'', Forall2 R l l' -> Forall2 R l' l'' -> Forall2 R l l''.
  Proof.
    intros H l' l'' H2; revert l''.
    induction H2; intros l'' H3; inversion H3; subst; [constructor|].
    inversion H; subst. constructor; eauto.
  Qed.

  Lemma Forall2_map_l_in (g : A -> A) l : Forall (fun a => R (g a) a) l -> Forall2 R (map g l) l.
  Proof. induction 1; constructor; assumption. Qed.

  Lemma Forall2_map_eq {B} (f : A -> B) l :
    Forall (fun a => forall b, R a b -> f a = f b) l ->
    forall l', Forall2 R l l' -> List.length l = List.length l' /\ map f l = map f l'.
  Proof.
    intros H l' H2. induction H2 as [|x y r r' Hxy Hr IH]; [split; reflexivity|].
    inversion H as [|? ? Hx Hr']; subst. destruct (IH Hr') as [IHa IHb].
    cbn [List.length map]. rewrite IHa, IHb, (Hx y Hxy). split; reflexivity.
  Qed.
End Forall2In.

Section Eqb.
  Context {T : Type} (N : NumOps T).
  Notation E := (expr T).

  Definition eqb_list : list E -> list E -> bool :=
    fix go (l l' : list E) {struct l} : bool :=
      match l, l' with
      | [], [] => true
      | x :: r, y :: r' => eqb N x y && go r r'
      | _, _ => false
      end.

  Lemma eqb_Add l l' : eqb N (Add l) (Add l') = eqb_list l l'.
  Proof. reflexivity. Qed.
  Lemma eqb_Mul l l' : eqb N (Mul l) (Mul l') = eqb_list l l'.
  Proof. reflexivity. Qed.

  Lemma eqb_list_cons x r l' :
    eqb_list (x :: r) l' = match l' with [] => false | y :: r' => eqb N x y && eqb_list r r' end.
  Proof. destruct l'; reflexivity. Qed.

  Lemma eqb_list_Forall2 (R : E -> E -> Prop) l :
    Forall (fun a => forall b, eqb N a b = true -> R b a) l ->
    forall l', eqb_list l l' = true -> Forall2 R l' l.
  Proof.
    induction 1 as [|x r Hx Hr IH]; intros [|y r'] HH; try discriminate HH; constructor;
      apply andb_prop in HH; [apply Hx | apply IH]; apply HH.
  Qed.

  Lemma Forall2_eqb_list (R : E -> E -> Prop) l :
    Forall (fun a => forall b, R b a -> eqb N a b = true) l ->
    forall l', Forall2 R l' l -> eqb_list l l' = true.
  Proof.
    intros H l' H2. induction H2 as [|y x r' r Hxy Hr IH]; [reflexivity|].
    inversion H; subst. cbn [eqb_list]. apply andb_true_intro. auto.
  Qed.

  (** [eqb a b] is [struct_eq b a], the sides exchanged; the facts about [eqb] are proved of
      [struct_eq] and carried over. *)
  Lemma eqb_struct : forall a b : E, eqb N a b = true -> struct_eq N b a.
  Proof.
    induction a using expr_ind'; intros [] HH; try discriminate HH; cbn [eqb] in HH;
      try (apply andb_prop in HH; destruct HH as [H1 H2]).
    all: try apply name_eqb_eq in HH; try apply Pos.eqb_eq in H2; subst.
    all: constructor; eauto using eqb_list_Forall2.
  Qed.

  Lemma struct_eqb : forall a b : E, struct_eq N b a -> eqb N a b = true.
  Proof.
    induction a using expr_ind'; intros b' HH; inversion HH; subst; cbn [eqb];
      try (apply andb_true_intro; split);
      eauto using Pos.eqb_refl, name_eqb_refl, Forall2_eqb_list.
  Qed.

  Lemma struct_eq_children (a b : E) :
    struct_eq N a b -> Forall2 (struct_eq N) (echildren a) (echildren b).
  Proof. destruct 1; cbn [echildren]; auto. Qed.

  Section HashE.
    Context {H : Type}.
    Variable h_str : string -> H.
    Variable h_name : name -> H.
    Variable h_num : T -> H.
    Variable h_pos : positive -> H.
    Variable h_nat : nat -> H.
    Variable h_tuple : list H -> H.
    Hypothesis Hnum : forall x y, neqb N x y = true -> h_num x = h_num y.
    Notation hash := (hash_expr h_str h_name h_num h_pos h_nat h_tuple).

    Lemma struct_eq_hash : forall a b : E, struct_eq N a b -> hash a = hash b.
    Proof.
      induction a as [a IH] using expr_ind_ch. intros b HH.
      destruct (Forall2_map_eq _ hash _ IH _ (struct_eq_children a b HH)) as [Hlen Hmap].
      (* the children hash alike; what is left of a node is its name and its parameter *)
      destruct HH; cbn [echildren map hash_expr] in *;
        try match goal with Hc : neqb N _ _ = true |- _ => apply Hnum in Hc end; congruence.
    Qed.

    Lemma eqb_hash_gen (a b : E) : eqb N a b = true -> hash a = hash b.
    Proof. intro HH. symmetry. apply struct_eq_hash, eqb_struct, HH. Qed.
  End HashE.

  Hypothesis Hequiv : num_equiv N.

  Lemma struct_eq_refl : forall a : E, struct_eq N a a.
  Proof.
    induction a using expr_ind'; constructor; auto using (num_refl Hequiv), Forall2_refl_in.
  Qed.

  Lemma struct_eq_sym : forall a b : E, struct_eq N a b -> struct_eq N b a.
  Proof.
    induction a using expr_ind'; intros b' HH; inversion HH; subst; constructor;
      eauto using (num_flip Hequiv), Forall2_sym_in.
  Qed.

  Lemma struct_eq_trans : forall a b c : E, struct_eq N a b -> struct_eq N b c -> struct_eq N a c.
  Proof.
    induction a using expr_ind'; intros b' c' H1 H2; inversion H1; subst; inversion H2; subst;
      constructor; eauto using (num_trans Hequiv), Forall2_trans_in.
  Qed.

  Lemma eqb_structural_gen (a b : E) : eqb N a b = true <-> struct_eq N a b.
  Proof.
    split; intro HH; [apply struct_eq_sym, eqb_struct | apply struct_eqb, struct_eq_sym]; exact HH.
  Qed.

  Lemma eqb_refl (a : E) : eqb N a a = true.
  Proof. apply struct_eqb, struct_eq_refl. Qed.

  Lemma eqb_sym (a b : E) : eqb N a b = eqb N b a.
  Proof.
    apply eq_true_iff_eq. split; intro HH; apply struct_eqb, struct_eq_sym, eqb_struct, HH.
  Qed.

  Lemma eqb_trans (a b c : E) : eqb N a b = true -> eqb N b c = true -> eqb N a c = true.
  Proof.
    intros H1 H2. apply struct_eqb. eapply struct_eq_trans; apply eqb_struct; eassumption.
  Qed.
End Eqb.

Theorem eqb_structural : C12_eqb_structural.
Proof. intros T N HN. exact (eqb_structural_gen N HN). Qed.

Theorem eqb_equivalence : C12_eqb_equivalence.
Proof.
  intros T N HN. exact (conj (eqb_refl N HN) (conj (eqb_sym N HN) (eqb_trans N HN))).
Qed.

Theorem eqb_hash : C12_eqb_hash.
Proof.
  intros T N H h_str h_name h_num h_pos h_nat h_tuple _.
  exact (eqb_hash_gen N h_str h_name h_num h_pos h_nat h_tuple).
Qed.

(* non-vacuity: 2 == 2.0-style equality on a non-trivial tree at R, and an unequal pair *)
Example eqb_ex :
  eqb RInst (Add [Var 1%positive; Exp (Const 2%R) 3%R]) (Add [Var 1%positive; Exp (Const (1+1)%R) 3%R]) = true /\
  eqb RInst (Add [Var 1%positive]) (Mul [Var 1%positive]) = false.
Proof.
  split; [|reflexivity].
  apply (proj2 (eqb_structural R RInst RInst_equiv _ _)).
  constructor. constructor; [constructor|]. constructor; [|constructor].
  constructor; [constructor|]; simpl; apply Reqb_true; ring.
Qed.

Section Points.
  Context {T : Type} (N : NumOps T).
  Notation pt := (point T).

  Lemma lookup_keys k (p : pt) : In k (map fst p) <-> exists v, lookup k p = Some v.
  Proof.
    induction p as [|[y w] r IH]; cbn [map fst lookup In].
    - split; [intros [] | intros [v Hv]; discriminate Hv].
    - destruct (name_eqb k y) eqn:E.
      + apply name_eqb_eq in E. split; [eauto | intros _; left; symmetry; exact E].
      + apply name_eqb_neq in E. rewrite <- IH. split; [intros [Hy|Hr]; [congruence|exact Hr] | auto].
  Qed.

  Lemma point_eqb_spec (p q : pt) :
    point_eqb N p q = true <->
    List.length p = List.length q /\
    forall k v, In (k, v) p -> exists w, lookup k q = Some w /\ neqb N v w = true.
  Proof.
    unfold point_eqb. rewrite andb_true_iff, Nat.eqb_eq, forallb_forall.
    split; intros [H1 H2]; split; auto.
    - intros k v Hin. specialize (H2 _ Hin); simpl in H2.
      destruct (lookup k q) as [w|]; [eauto|discriminate].
    - intros [k v] Hin; simpl. destruct (H2 k v Hin) as (w & -> & Hw); exact Hw.
  Qed.

  Lemma same_coords_keys (p q : pt) :
    same_coords N p q -> forall k, In k (map fst p) <-> In k (map fst q).
  Proof.
    intros Hsc k. rewrite !lookup_keys. specialize (Hsc k).
    destruct (lookup k p), (lookup k q); try contradiction;
      split; intros [v Hv]; try discriminate Hv; eauto.
  Qed.

  Lemma point_eq_gen (p q : pt) :
    NoDup (map fst p) -> NoDup (map fst q) ->
    (point_eqb N p q = true <-> same_coords N p q).
  Proof.
    intros Hp Hq. rewrite point_eqb_spec. split.
    - intros [Hlen HP].
      (* every key of p is one of q; as there are equally many, and none twice, also conversely *)
      assert (Hincl : incl (map fst p) (map fst q)).
      { intros k Hk. apply lookup_keys in Hk. destruct Hk as [v Hv]. apply lookup_some_in in Hv.
        destruct (HP k v Hv) as (w & Hw & _). apply lookup_keys; eauto. }
      assert (Hincl' : incl (map fst q) (map fst p)).
      { apply NoDup_length_incl; auto. rewrite !map_length; lia. }
      intros k. destruct (lookup k p) as [v|] eqn:Ep.
      + apply lookup_some_in in Ep. destruct (HP k v Ep) as (w & -> & Hw); exact Hw.
      + destruct (lookup k q) as [w|] eqn:Eq; [|exact I].
        assert (Hk : In k (map fst p)) by (apply Hincl', lookup_keys; eauto).
        apply lookup_keys in Hk. destruct Hk as [v Hv]. congruence.
    - intros Hsc. split.
      + rewrite <- (map_length fst p), <- (map_length fst q).
        apply Permutation_length, NoDup_Permutation; auto. apply same_coords_keys, Hsc.
      + intros k v Hin. apply in_lookup_some in Hin; auto.
        specialize (Hsc k). rewrite Hin in Hsc.
        destruct (lookup k q) as [w|]; [eauto|contradiction].
  Qed.

  Lemma insert_coord_perm kv (l : pt) : Permutation (kv :: l) (insert_coord kv l).
  Proof.
    induction l as [|kw r IH]; simpl; [apply Permutation_refl|].
    destruct (Pos.leb (fst kv) (fst kw)); [apply Permutation_refl|].
    eapply perm_trans; [apply perm_swap|]. apply perm_skip; exact IH.
  Qed.

  Lemma sort_coords_cons kv (r : pt) : sort_coords (kv :: r) = insert_coord kv (sort_coords r).
  Proof. reflexivity. Qed.

  Lemma sort_coords_perm (p : pt) : Permutation p (sort_coords p).
  Proof.
    induction p as [|kv r IH]; [apply Permutation_refl|].
    rewrite sort_coords_cons.
    eapply perm_trans; [|apply insert_coord_perm]. apply perm_skip; exact IH.
  Qed.

  Definition ltk (a b : name * T) : Prop := (fst a < fst b)%positive.

  Lemma insert_coord_sorted kv (l : pt) :
    ~ In (fst kv) (map fst l) -> StronglySorted ltk l -> StronglySorted ltk (insert_coord kv l).
  Proof.
    induction l as [|kw r IH]; simpl; intros Hnin Hs.
    - constructor; constructor.
    - inversion Hs as [|kw' r' Hsr Hall]; subst.
      destruct (Pos.leb_spec (fst kv) (fst kw)) as [Hle|Hlt].
      + assert (Hlt : ltk kv kw).
        { unfold ltk. destruct (Pos.eq_dec (fst kv) (fst kw)) as [e|ne];
            [exfalso; apply Hnin; left; symmetry; exact e | lia]. }
        constructor; [exact Hs|]. constructor; [exact Hlt|].
        eapply Forall_impl; [|exact Hall]. unfold ltk in *; intros a Ha; lia.
      + constructor.
        * apply IH; auto.
        * eapply Permutation_Forall; [apply insert_coord_perm|].
          constructor; [exact Hlt|exact Hall].
  Qed.

  Lemma sort_coords_sorted (p : pt) :
    NoDup (map fst p) -> StronglySorted ltk (sort_coords p).
  Proof.
    induction p as [|kv r IH]; intros Hnd.
    - constructor.
    - simpl map in Hnd; inversion Hnd as [|k' r' Hk Hr]; subst.
      rewrite sort_coords_cons. apply insert_coord_sorted; auto.
      intros Hin; apply Hk.
      eapply Permutation_in; [apply Permutation_map; symmetry; apply sort_coords_perm | exact Hin].
  Qed.

  Lemma sorted_head_le kv (r : pt) k :
    Forall (ltk kv) r -> In k (map fst (kv :: r)) -> (fst kv <= k)%positive.
  Proof.
    intros Hall [Hk|Hk]; [subst k; lia|].
    apply in_map_iff in Hk. destruct Hk as (kw & <- & Hin).
    rewrite Forall_forall in Hall. apply Pos.lt_le_incl, Hall, Hin.
  Qed.

  Lemma sorted_tail_None k v (r : pt) : Forall (ltk (k, v)) r -> lookup k r = None.
  Proof.
    intros Hall. destruct (lookup k r) as [w|] eqn:E; [exfalso|reflexivity].
    apply lookup_some_in in E. rewrite Forall_forall in Hall.
    apply (Pos.lt_irrefl k), (Hall _ E).
  Qed.

  (** [hash_point] hashes the key-sorted list of coordinates: points that are equal must sort to
      lists that agree position by position. *)
  Definition kv_rel (a b : name * T) : Prop :=
    fst a = fst b /\ neqb N (snd a) (snd b) = true.

  Lemma sorted_same (s1 : pt) : forall s2 : pt,
    StronglySorted ltk s1 -> StronglySorted ltk s2 -> same_coords N s1 s2 ->
    Forall2 kv_rel s1 s2.
  Proof.
    induction s1 as [|[k v] r1 IH]; intros [|[k' w] r2] H1 H2 Hsc; [constructor| | |].
    - specialize (Hsc k'). cbn [lookup] in Hsc. rewrite name_eqb_refl in Hsc. contradiction.
    - specialize (Hsc k). cbn [lookup] in Hsc. rewrite name_eqb_refl in Hsc. contradiction.
    - inversion H1 as [|kv1 r1' Hs1 Ha1]; inversion H2 as [|kv2 r2' Hs2 Ha2]; subst.
      assert (Hkk : k = k').
      { apply Pos.le_antisym.
        - apply (sorted_head_le (k, v) r1 k' Ha1), (same_coords_keys _ _ Hsc). left; reflexivity.
        - apply (sorted_head_le (k', w) r2 k Ha2), (same_coords_keys _ _ Hsc). left; reflexivity. }
      subst k'. constructor.
      + split; [reflexivity|]. specialize (Hsc k).
        cbn [lookup] in Hsc. rewrite name_eqb_refl in Hsc. exact Hsc.
      + apply IH; auto. intros j. destruct (name_eqb j k) eqn:Ej.
        * apply name_eqb_eq in Ej. subst j.
          rewrite (sorted_tail_None k v r1 Ha1), (sorted_tail_None k w r2 Ha2). exact I.
        * specialize (Hsc j). cbn [lookup] in Hsc. rewrite Ej in Hsc. exact Hsc.
  Qed.

  Lemma sort_coords_same (p q : pt) :
    NoDup (map fst p) -> NoDup (map fst q) -> same_coords N p q ->
    Forall2 kv_rel (sort_coords p) (sort_coords q).
  Proof.
    intros Hp Hq Hsc. apply sorted_same.
    - apply sort_coords_sorted; exact Hp.
    - apply sort_coords_sorted; exact Hq.
    - intros k.
      rewrite <- (lookup_perm p (sort_coords p) Hp (sort_coords_perm p) k).
      rewrite <- (lookup_perm q (sort_coords q) Hq (sort_coords_perm q) k).
      apply Hsc.
  Qed.

  Section HashP.
    Context {H : Type}.
    Variable h_str : string -> H.
    Variable h_name : name -> H.
    Variable h_num : T -> H.
    Variable h_tuple : list H -> H.
    Hypothesis Hnum : forall x y, neqb N x y = true -> h_num x = h_num y.

    Lemma point_hash_gen (p q : pt) :
      NoDup (map fst p) -> NoDup (map fst q) -> point_eqb N p q = true ->
      hash_point h_str h_name h_num h_tuple p = hash_point h_str h_name h_num h_tuple q.
    Proof.
      intros Hp Hq Heq. apply (point_eq_gen p q Hp Hq), (sort_coords_same p q Hp Hq) in Heq.
      unfold hash_point.
      eapply Forall2_map_eq in Heq as [_ HM]; [rewrite HM; reflexivity|].
      apply Forall_forall. intros a _ b [Hk Hv]. cbn beta. rewrite Hk, (Hnum _ _ Hv). reflexivity.
    Qed.
  End HashP.

  Hypothesis Hequiv : num_equiv N.

  Lemma same_coords_refl (p : pt) : same_coords N p p.
  Proof. intros k. destruct (lookup k p); [apply (num_refl Hequiv)|exact I]. Qed.

  Lemma same_coords_sym (p q : pt) : same_coords N p q -> same_coords N q p.
  Proof.
    intros Hsc k. specialize (Hsc k).
    destruct (lookup k p), (lookup k q); auto using (num_flip Hequiv).
  Qed.

  Lemma same_coords_trans (p q r : pt) :
    same_coords N p q -> same_coords N q r -> same_coords N p r.
  Proof.
    intros H1 H2 k. specialize (H1 k); specialize (H2 k).
    destruct (lookup k p), (lookup k q), (lookup k r); try contradiction;
      eauto using (num_trans Hequiv).
  Qed.

  Lemma point_eqb_refl (p : pt) : NoDup (map fst p) -> point_eqb N p p = true.
  Proof. intros Hp. apply (point_eq_gen p p Hp Hp). apply same_coords_refl. Qed.

  Lemma point_eqb_sym (p q : pt) :
    NoDup (map fst p) -> NoDup (map fst q) -> point_eqb N p q = point_eqb N q p.
  Proof.
    intros Hp Hq. apply eq_true_iff_eq.
    rewrite (point_eq_gen p q Hp Hq), (point_eq_gen q p Hq Hp).
    split; apply same_coords_sym.
  Qed.

  Lemma point_eqb_trans (p q r : pt) :
    NoDup (map fst p) -> NoDup (map fst q) -> NoDup (map fst r) ->
    point_eqb N p q = true -> point_eqb N q r = true -> point_eqb N p r = true.
  Proof.
    intros Hp Hq Hr.
    rewrite (point_eq_gen p q Hp Hq), (point_eq_gen q r Hq Hr), (point_eq_gen p r Hp Hr).
    apply same_coords_trans.
  Qed.

  Lemma point_eqb_perm (p q : pt) :
    NoDup (map fst p) -> Permutation p q -> point_eqb N p q = true.
  Proof.
    intros Hp Hpq.
    assert (Hq : NoDup (map fst q))
      by (eapply Permutation_NoDup; [apply Permutation_map; exact Hpq | exact Hp]).
    apply (point_eq_gen p q Hp Hq). intros k.
    rewrite <- (lookup_perm p q Hp Hpq k). apply same_coords_refl.
  Qed.
End Points.

Theorem point_eq : C12_point_eq.
Proof. intros T N _. exact (point_eq_gen N). Qed.

Theorem point_perm : C12_point_perm.
Proof. intros T N HN. exact (point_eqb_perm N HN). Qed.

Theorem point_hash : C12_point_hash.
Proof.
  intros T N H h_str h_name h_num h_tuple _. exact (point_hash_gen N h_str h_name h_num h_tuple).
Qed.

(** [py_eq (OPoint p) (OPoint q)] is [point_eqb q p], the sides exchanged. *)
Theorem py_eq_equivalence : C12_py_eq_equivalence.
Proof.
  unfold C12_py_eq_equivalence; intros T N HN; split; [|split].
  - intros [e|p|e v|e|e|e p|k] Ha; cbn [py_eq wf_obj] in *;
      rewrite ?(eqb_refl N HN), ?name_eqb_refl; cbn [andb];
      auto using (point_eqb_refl N HN), Nat.eqb_refl.
  - intros a b Ha Hb;
      destruct a as [e|p|e v|e|e|e p|k]; destruct b as [e'|p'|e' v'|e'|e'|e' p'|k'];
      cbn [py_eq wf_obj] in *; try reflexivity.
    + apply eqb_sym; exact HN.
    + apply point_eqb_sym; assumption.
    + rewrite (eqb_sym N HN e e'). f_equal. apply Pos.eqb_sym.
    + apply eqb_sym; exact HN.
    + apply eqb_sym; exact HN.
    + rewrite (eqb_sym N HN e e'), (point_eqb_sym N HN p p' Ha Hb); reflexivity.
    + apply Nat.eqb_sym.
  - intros a b c Ha Hb Hc;
      destruct a as [e|p|e v|e|e|e p|k]; destruct b as [e'|p'|e' v'|e'|e'|e' p'|k'];
      cbn [py_eq wf_obj] in *; try discriminate;
      destruct c as [e''|p''|e'' v''|e''|e''|e'' p''|k'']; cbn [py_eq wf_obj] in *; try discriminate.
    + apply eqb_trans; exact HN.
    + intros H1 H2. eapply (point_eqb_trans N HN p'' p' p); eauto.
    + rewrite !andb_true_iff, !name_eqb_eq.
      intros [H1 H2] [H3 H4]; split; [eapply eqb_trans; eauto | congruence].
    + apply eqb_trans; exact HN.
    + apply eqb_trans; exact HN.
    + rewrite !andb_true_iff.
      intros [H1 H2] [H3 H4]; split;
        [eapply eqb_trans; eauto | eapply (point_eqb_trans N HN p p' p''); eauto].
    + rewrite !Nat.eqb_eq; congruence.
Qed.

Lemma py_eq_refl {T} (N : NumOps T) (HN : num_equiv N) (a : pyobj) :
  wf_obj a -> py_eq N a a = true.
Proof. apply (py_eq_equivalence T N HN). Qed.

Theorem py_eq_hash : C12_py_eq_hash.
Proof.
  unfold C12_py_eq_hash;
    intros T N H h_str h_name h_num h_pos h_nat h_tuple HN Hnum a b Ha Hb.
  pose proof (eqb_hash_gen N h_str h_name h_num h_pos h_nat h_tuple Hnum) as He.
  pose proof (point_hash_gen N h_str h_name h_num h_tuple Hnum) as Hp.
  destruct a as [e|p|e v|e|e|e p|k]; destruct b as [e'|p'|e' v'|e'|e'|e' p'|k'];
    cbn [py_eq py_hash wf_obj] in *; try discriminate; intro HH.
  - rewrite (He e e' HH). reflexivity.
  - rewrite (Hp p' p Hb Ha HH). reflexivity.
  - apply andb_prop in HH. rewrite (He e e' (proj1 HH)). reflexivity.
  - rewrite (He e e' HH). reflexivity.
  - rewrite (He e e' HH). reflexivity.
  - apply andb_prop in HH. rewrite (He e e' (proj1 HH)), (Hp p p' Ha Hb (proj2 HH)). reflexivity.
  - reflexivity.
Qed.

(* non-vacuity: Point(x=1, y=2) == Point(y=2, x=1) at R, and a sorted view *)
Example point_ex :
  let p := [(1%positive, 1%R); (2%positive, 2%R)] in
  let q := [(2%positive, 2%R); (1%positive, 1%R)] in
  wf_point p /\ wf_point q /\ point_eqb RInst p q = true /\ sort_coords q = p.
Proof.
  intros p q.
  assert (Hp : wf_point p) by (repeat constructor; simpl; intuition discriminate).
  assert (Hq : wf_point q) by (repeat constructor; simpl; intuition discriminate).
  repeat split; try assumption.
  apply (point_perm R RInst RInst_equiv p q Hp), perm_swap.
Qed.

Print Assumptions RInst_equiv.
Print Assumptions eqb_structural.
Print Assumptions eqb_equivalence.
Print Assumptions eqb_hash.
Print Assumptions point_eq.
Print Assumptions point_perm.
Print Assumptions point_hash.
Print Assumptions py_eq_equivalence.
Print Assumptions py_eq_hash.
