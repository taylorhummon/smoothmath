(** What the soundness proofs of the rewrite rules and of the driver share: [refines] as a preorder
    and a congruence; [Add] and [Mul] as one node [nary b] over the list operation [opR b]
    (b = true: sum), so that a statement about both is proved once; the real analysis of powers
    and roots. *)
From Coq Require Import Reals ZArith List Bool Permutation Lra.
From SM Require Import Syntax Eval Rules Denote Spec.
From SM.proofs Require Import SyntaxFacts RulesFacts RInstFacts.
Import ListNotations.
Open Scope R_scope.

Local Notation E := (expr R).

Lemma refines_intro (e e' : E) :
  (wfR e -> wfR e') -> incl (vars e') (vars e) ->
  (forall rho, wfR e -> InDomain rho e -> InDomain rho e' /\ denote rho e' = denote rho e) ->
  refines e e'.
Proof.
  intros W I D H. split; [exact (W H)|]. split; [exact I|]. intro rho. exact (D rho H).
Qed.

Definition rule_sound (f : E -> option E) : Prop := forall e e', f e = Some e' -> refines e e'.

(** [rule_shape], [const_shape]: the rule fires on one shape, whose parts the arguments name.
    [rule_intro] leaves the domain and the value of the output on the domain of the input. *)
Ltac rule_shape e a b n :=
  destruct e as [?|?|?|?|a b|a b|a b|a|a|a|a|a n|a n|a b|a b]; try discriminate.
Ltac const_shape e c :=
  destruct e as [c|?|?|?|? ?|? ?|? ?|?|?|?|?|? ?|? ?|? ?|? ?]; try discriminate.

Ltac rule_intro :=
  apply refines_intro;
  [ cbn [wf fold_right]; tauto
  | cbn [vars flat_map app]; rewrite ?app_nil_r, ?app_assoc; first [apply incl_refl | apply incl_nil_l]
  | cbn [InDomain denote fold_right] ].

Lemma refines_refl e : refines e e.
Proof.
  apply refines_intro; [intro H; exact H | apply incl_refl |].
  intros rho _ D. split; [exact D | reflexivity].
Qed.

Lemma refines_trans e1 e2 e3 : refines e1 e2 -> refines e2 e3 -> refines e1 e3.
Proof.
  intros H12 H23 W1.
  destruct (H12 W1) as (W2 & I2 & D2). destruct (H23 W2) as (W3 & I3 & D3).
  split; [exact W3|]. split; [exact (incl_tran I3 I2)|].
  intros rho D. destruct (D2 rho D) as [D' E2]. destruct (D3 rho D') as [D'' E3].
  split; [exact D'' | congruence].
Qed.

Definition op2 (b : bool) (x y : R) : R := if b then x + y else x * y.
Definition opR (b : bool) (l : list R) : R := fold_right (op2 b) (if b then 0 else 1) l.

Lemma opR_cons b x l : opR b (x :: l) = op2 b x (opR b l).
Proof. reflexivity. Qed.

Lemma opR_app b x y : opR b (x ++ y) = op2 b (opR b x) (opR b y).
Proof.
  unfold opR. induction x as [|a x IH]; cbn [app fold_right].
  - destruct b; cbn [op2]; ring.
  - rewrite IH. destruct b; cbn [op2]; ring.
Qed.

Lemma opR_perm b x y : Permutation x y -> opR b x = opR b y.
Proof.
  unfold opR. induction 1 as [|a x y _ IH|a c x|x y z _ IH1 _ IH2]; cbn [fold_right].
  - reflexivity.
  - rewrite IH. reflexivity.
  - destruct b; cbn [op2]; ring.
  - congruence.
Qed.

Lemma wf_nary b l : wfR (nary b l) <-> Forall wfR l.
Proof. destruct b; apply fold_and_Forall. Qed.

Lemma dom_nary b rho l : InDomain rho (nary b l) <-> Forall (InDomain rho) l.
Proof. destruct b; apply fold_and_Forall. Qed.

Lemma vars_nary b (l : list E) : vars (nary b l) = flat_map vars l.
Proof. destruct b; reflexivity. Qed.

Lemma den_nary b rho l : denote rho (nary b l) = opR b (map (denote rho) l).
Proof. destruct b; [apply denote_Add_map | apply denote_Mul_map]. Qed.

Lemma nary_intro b l l' :
  (Forall wfR l -> Forall wfR l') -> incl (flat_map vars l') (flat_map vars l) ->
  (forall rho, Forall (InDomain rho) l ->
     Forall (InDomain rho) l' /\ opR b (map (denote rho) l') = opR b (map (denote rho) l)) ->
  refines (nary b l) (nary b l').
Proof.
  intros W I D. apply refines_intro.
  - rewrite !wf_nary. exact W.
  - rewrite !vars_nary. exact I.
  - intros rho _. rewrite !dom_nary, !den_nary. apply D.
Qed.

Lemma nary_unwrap b x : refines (nary b [x]) x.
Proof.
  apply refines_intro.
  - rewrite wf_nary. intro W. inversion W. assumption.
  - rewrite vars_nary. cbn [flat_map]. rewrite app_nil_r. apply incl_refl.
  - intros rho _. rewrite dom_nary, den_nary. intro D. inversion D. split; [assumption|].
    destruct b; cbn; ring.
Qed.

Lemma nary_wrap b x : refines x (nary b [x]).
Proof.
  apply refines_intro.
  - rewrite wf_nary. intro W. constructor; [exact W | constructor].
  - rewrite vars_nary. cbn [flat_map]. rewrite app_nil_r. apply incl_refl.
  - intros rho _ D. rewrite dom_nary, den_nary. split; [constructor; [exact D | constructor]|].
    destruct b; cbn; ring.
Qed.

Lemma nary_app b a a' c c' :
  refines (nary b a) (nary b a') -> refines (nary b c) (nary b c') ->
  refines (nary b (a ++ c)) (nary b (a' ++ c')).
Proof.
  intros Ha Hc W. rewrite wf_nary, Forall_app, <- !(wf_nary b) in W. destruct W as [Wa Wc].
  destruct (Ha Wa) as (Wa' & Ia & Da). destruct (Hc Wc) as (Wc' & Ic & Dc).
  split; [rewrite wf_nary, Forall_app, <- !(wf_nary b); split; assumption|].
  rewrite !vars_nary in *. split; [rewrite !flat_map_app; apply incl_app_app; assumption|].
  intros rho D. rewrite dom_nary, Forall_app, <- !(dom_nary b) in D. destruct D as [D1 D2].
  destruct (Da rho D1) as [Da' Ea]. destruct (Dc rho D2) as [Dc' Ec].
  split; [rewrite dom_nary, Forall_app, <- !(dom_nary b); split; assumption|].
  rewrite !den_nary, !map_app, !opR_app, <- !den_nary, Ea, Ec. reflexivity.
Qed.

Lemma nary_cong b l l' : Forall2 refines l l' -> refines (nary b l) (nary b l').
Proof.
  induction 1 as [|x x' l l' Hx _ IH]; [apply refines_refl|].
  apply (nary_app b [x] [x'] l l'); [|exact IH].
  exact (refines_trans _ _ _ (nary_unwrap b x) (refines_trans _ _ _ Hx (nary_wrap b x'))).
Qed.

Lemma nary_perm b l l' : Permutation l l' -> refines (nary b l) (nary b l').
Proof.
  intro P. apply nary_intro.
  - apply Permutation_Forall, P.
  - intros x Hx. apply (Permutation_in _ (Permutation_flat_map vars (Permutation_sym P))), Hx.
  - intros rho D. split; [exact (Permutation_Forall P D)|].
    apply opR_perm, Permutation_map, Permutation_sym, P.
Qed.

Lemma filter_perm {A} (f : A -> bool) l :
  Permutation l (filter (fun x => negb (f x)) l ++ filter f l).
Proof.
  induction l as [|a l IH]; cbn [filter]; [constructor|].
  destruct (f a); cbn [negb app].
  - apply Permutation_cons_app, IH.
  - constructor. exact IH.
Qed.

Lemma nary_filter b (p : E -> bool) l new :
  refines (nary b (filter p l)) (nary b new) ->
  refines (nary b l) (nary b (filter (fun x => negb (p x)) l ++ new)).
Proof.
  intro H. apply (refines_trans _ _ _ (nary_perm b _ _ (filter_perm p l))).
  apply nary_app; [apply refines_refl | exact H].
Qed.

Lemma nary_flat_map {G} b (f : G -> list E) (h : G -> E) gs :
  (forall g, In g gs -> refines (nary b (f g)) (nary b [h g])) ->
  refines (nary b (flat_map f gs)) (nary b (map h gs)).
Proof.
  induction gs as [|g gs IH]; intro H; cbn [flat_map map]; [apply refines_refl|].
  apply (nary_app b (f g) [h g]).
  - apply H. left. reflexivity.
  - apply IH. intros g' Hg'. apply H. right. exact Hg'.
Qed.

Lemma flat_map_vars_map (f : E -> E) us :
  (forall u, vars (f u) = vars u) -> flat_map vars (map f us) = flat_map vars us.
Proof.
  intro H. induction us as [|a us IH]; cbn [map flat_map]; [reflexivity|]. rewrite H, IH. reflexivity.
Qed.

Set Implicit Arguments.
(* [f] (Neg, Recip, NthPow _ n, ...) passes through an n-ary node: [f (nary b' us)] refines
   [nary b (map f us)]; [h] is what [f] does to a value, [D] the side condition on an operand's value. *)
Record through (b b' : bool) (f : E -> E) (h : R -> R) (D : R -> Prop) : Prop := {
  f_wf : forall u u', wfR (f u) -> wfR u /\ (wfR u' -> wfR (f u'));
  f_vars : forall u, vars (f u) = vars u;
  f_dom : forall rho u, InDomain rho (f u) <-> InDomain rho u /\ D (denote rho u);
  f_den : forall rho u, denote rho (f u) = h (denote rho u);
  D_unit : D (opR b' []);
  D_op : forall x y, D x -> D y -> D (op2 b' x y);
  h_unit : h (opR b' []) = opR b [];
  h_op : forall x y, D x -> D y -> h (op2 b' x y) = op2 b (h x) (h y) }.
Unset Implicit Arguments.
(* the expected type fixes [f], [h], [D] before the fields are checked *)
Arguments Build_through {b b' f h D} & _ _ _ _ _ _ _ _.

Section Through.
  Context {b b' : bool} {f : E -> E} {h : R -> R} {D : R -> Prop} (T : through b b' f h D).

  Lemma through_dom rho us :
    Forall (InDomain rho) (map f us) <->
    Forall (InDomain rho) us /\ Forall D (map (denote rho) us).
  Proof.
    induction us as [|u us IH]; cbn [map].
    - split; [split; constructor | constructor].
    - rewrite !Forall_cons_iff, IH, (f_dom T). tauto.
  Qed.

  Lemma through_den rho us : map (denote rho) (map f us) = map h (map (denote rho) us).
  Proof. rewrite !map_map. apply map_ext, (f_den T). Qed.

  Lemma through_hom l : Forall D l -> D (opR b' l) /\ opR b (map h l) = h (opR b' l).
  Proof.
    induction 1 as [|x l Dx _ [Dl IH]].
    - split; [exact (D_unit T) | symmetry; exact (h_unit T)].
    - cbn [map]. rewrite !opR_cons, IH. split; [apply (D_op T); assumption|].
      symmetry. apply (h_op T); assumption.
  Qed.

  Lemma nary_collect us : us <> [] -> refines (nary b (map f us)) (nary b [f (nary b' us)]).
  Proof.
    intros Hne. apply nary_intro.
    - intro W. rewrite Forall_map in W. constructor; [|constructor].
      destruct us as [|u0 us']; [contradiction|].
      apply (f_wf T u0); [inversion W; assumption|]. apply wf_nary.
      exact (Forall_impl _ (fun u Hu => proj1 (f_wf T u u Hu)) W).
    - cbn [flat_map]. rewrite app_nil_r, (f_vars T), vars_nary, flat_map_vars_map by exact (f_vars T).
      apply incl_refl.
    - intros rho Hd. apply through_dom in Hd. destruct Hd as [Hd HD].
      destruct (through_hom _ HD) as [DD EE].
      split.
      + constructor; [|constructor]. apply (f_dom T). rewrite dom_nary, den_nary. split; assumption.
      + rewrite through_den, EE. cbn [map]. rewrite (f_den T), den_nary. destruct b; cbn; ring.
  Qed.

  Lemma nary_distribute us :
    (forall x y, D (op2 b' x y) -> D x /\ D y) -> refines (f (nary b' us)) (nary b (map f us)).
  Proof.
    intros D2. apply refines_intro.
    - intro W. destruct (f_wf T _ (nary b' us) W) as [W' _]. rewrite wf_nary in *.
      rewrite Forall_map. exact (Forall_impl _ (fun u Hu => proj2 (f_wf T _ u W) Hu) W').
    - rewrite (f_vars T), !vars_nary, flat_map_vars_map by exact (f_vars T). apply incl_refl.
    - intros rho _ Hd. apply (f_dom T) in Hd. rewrite dom_nary, den_nary in Hd. destruct Hd as [Hd HD].
      assert (HDs : Forall D (map (denote rho) us)).
      { clear Hd. induction us as [|u us' IH]; [constructor|].
        apply D2 in HD. constructor; [|apply IH]; apply HD. }
      destruct (through_hom _ HDs) as [_ EE].
      rewrite dom_nary, through_dom, !den_nary, through_den, (f_den T), den_nary.
      split; [split; assumption | exact EE].
  Qed.
End Through.

Lemma Neg_through : through true true Neg Ropp (fun _ => True).
Proof.
  refine {| f_vars := fun u => eq_refl;
            f_den := fun rho u => eq_refl;
            D_unit := I;
            D_op := fun _ _ _ _ => I;
            h_unit := Ropp_0;
            h_op := fun x y _ _ => Ropp_plus_distr x y;
            f_wf := _;
            f_dom := _ |}.
  all: cbn [wf InDomain]; tauto.
Qed.

Lemma Recip_through : through false false Recip Rinv (fun x => x <> 0).
Proof.
  refine {| f_vars := fun u => eq_refl;
            f_den := fun rho u => eq_refl;
            D_unit := R1_neq_R0;
            D_op := Rmult_integral_contrapositive_currified;
            h_unit := Rinv_1;
            h_op := fun x y _ _ => Rinv_mult x y;
            f_wf := _;
            f_dom := _ |}.
  all: cbn [wf InDomain]; tauto.
Qed.

Lemma refines_rebuild e l' : Forall2 refines (echildren e) l' -> refines e (erebuild e l').
Proof.
  intro H. destruct e; cbn [echildren] in H.
  1-2: apply refines_refl.
  1: exact (nary_cong true _ _ H).
  1: exact (nary_cong false _ _ H).
  1-3: inversion H as [|? a' ? ? Ha Hl]; inversion Hl as [|? b' ? ? Hb Hn]; inversion Hn; subst.
  1-3: cbn [erebuild]; intro W; cbn [wf] in W; destruct W as [Wa Wb].
  1-3: destruct (Ha Wa) as (Wa' & Ia & Da); destruct (Hb Wb) as (Wb' & Ib & Db).
  1-3: split; [exact (conj Wa' Wb')|]; split; [apply incl_app_app; assumption|].
  1-3: intros rho D; cbn [InDomain denote] in D |- *.
  1-3: destruct (Da rho ltac:(tauto)) as [Da' ->]; destruct (Db rho ltac:(tauto)) as [Db' ->]; tauto.
  all: inversion H as [|? a' ? ? Ha Hn]; inversion Hn; subst.
  all: cbn [erebuild]; intro W; cbn [wf] in W.
  all: destruct (Ha ltac:(tauto)) as (Wa' & Ia & Da).
  all: split; [cbn [wf]; tauto|]; split; [exact Ia|].
  all: intros rho D; cbn [InDomain denote] in D |- *.
  all: destruct (Da rho ltac:(tauto)) as [Da' ->]; tauto.
Qed.

(** [Denote.root n] is [Rpower] with exponent 1/n on the positive reals, continued to an odd
    function.  Two odd functions that agree on the positive reals agree everywhere ([odd_ext]):
    that is how a law of [Rpower] becomes a law of [root]. *)

Lemma odd_ext (f g : R -> R) :
  (forall x, f (- x) = - f x) -> (forall x, g (- x) = - g x) ->
  (forall x, 0 < x -> f x = g x) -> forall x, f x = g x.
Proof.
  intros Hf Hg H x. destruct (Rtotal_order x 0) as [L|[->|G]].
  - rewrite <- (Ropp_involutive x), Hf, Hg, H by lra. reflexivity.
  - pose proof (Hf 0) as F. pose proof (Hg 0) as G. rewrite Ropp_0 in F, G. lra.
  - exact (H x G).
Qed.

Lemma pow_opp (n : positive) (a : R) :
  (- a) ^ Pos.to_nat n = if Z.even (Zpos n) then a ^ Pos.to_nat n else - a ^ Pos.to_nat n.
Proof.
  assert (S : (- a) ^ 2 = a ^ 2) by ring. destruct n as [p|p|]; cbn [Z.even].
  - rewrite Pos2Nat.inj_xI, <- !tech_pow_Rmult, !pow_mult, S. ring.
  - rewrite Pos2Nat.inj_xO, !pow_mult, S. reflexivity.
  - change (Pos.to_nat 1) with 1%nat. ring.
Qed.

Lemma pow_odd_pos_inv (n : positive) (x : R) :
  Z.even (Zpos n) = false -> 0 < x ^ Pos.to_nat n -> 0 < x.
Proof.
  intros E P. destruct (Rtotal_order x 0) as [L|[->|G]]; [| |exact G].
  - assert (Q : 0 < (- x) ^ Pos.to_nat n) by (apply pow_lt; lra). rewrite pow_opp, E in Q. lra.
  - rewrite pow_i in P by apply Pos2Nat.is_pos. lra.
Qed.

Lemma Rinv_pos_inv (x : R) : 0 < / x -> 0 < x.
Proof. intro P. rewrite <- (Rinv_inv x). exact (Rinv_0_lt_compat _ P). Qed.

Lemma Rpower_one_base (y : R) : Rpower 1 y = 1.
Proof. unfold Rpower. rewrite ln_1, Rmult_0_r. apply exp_0. Qed.

Lemma Rpower_inv_base (x y : R) : 0 < x -> Rpower (/ x) y = / Rpower x y.
Proof. intro Hx. unfold Rpower. rewrite ln_Rinv, <- exp_Ropp by exact Hx. f_equal. ring. Qed.

Lemma Rpower_Zpos (x : R) (n : positive) : 0 < x -> Rpower x (IZR (Zpos n)) = x ^ Pos.to_nat n.
Proof. intro Hx. rewrite <- Rpower_pow, INR_IPR by exact Hx. reflexivity. Qed.

Lemma root_opp (n : positive) (x : R) : root n (- x) = - root n x.
Proof.
  destruct (Rtotal_order x 0) as [L|[->|G]].
  - rewrite (root_of_pos n (- x)), (root_of_neg n x) by lra. ring.
  - rewrite Ropp_0, root_of_0. ring.
  - rewrite (root_of_neg n (- x)), (root_of_pos n x), Ropp_involutive by lra. reflexivity.
Qed.

Lemma root_of_1 (n : positive) : root n 1 = 1.
Proof. rewrite root_of_pos by lra. apply Rpower_one_base. Qed.

Lemma root_pos_inv (n : positive) (x : R) : 0 < root n x -> 0 < x.
Proof.
  intro H. destruct (Rtotal_order x 0) as [L|[->|G]]; [| |exact G].
  - pose proof (root_neg n x L). lra.
  - rewrite root_of_0 in H. lra.
Qed.

Lemma root_mult (n : positive) (x y : R) : root n (x * y) = root n x * root n y.
Proof.
  revert x. apply (odd_ext (fun x => root n (x * y)) (fun x => root n x * root n y)).
  - intro x. rewrite Ropp_mult_distr_l_reverse. apply root_opp.
  - intro x. rewrite root_opp. ring.
  - intros x Hx. revert y. apply (odd_ext (fun y => root n (x * y)) (fun y => root n x * root n y)).
    + intro y. rewrite Ropp_mult_distr_r_reverse. apply root_opp.
    + intro y. rewrite root_opp. ring.
    + intros y Hy. rewrite !root_of_pos by (try apply Rmult_lt_0_compat; assumption).
      symmetry. apply Rpower_mult_distr; assumption.
Qed.

Lemma root_inv (n : positive) (x : R) : root n (/ x) = / root n x.
Proof.
  revert x. apply (odd_ext (fun x => root n (/ x)) (fun x => / root n x)).
  - intro x. rewrite Rinv_opp. apply root_opp.
  - intro x. rewrite root_opp. apply Rinv_opp.
  - intros x Hx. rewrite !root_of_pos by (try apply Rinv_0_lt_compat; assumption).
    apply Rpower_inv_base, Hx.
Qed.

Lemma root_root (n m : positive) (x : R) : root n (root m x) = root (n * m) x.
Proof.
  revert x. apply (odd_ext (fun x => root n (root m x)) (root (n * m))).
  - intro x. rewrite !root_opp. reflexivity.
  - apply root_opp.
  - intros x Hx. rewrite (root_of_pos n) by (apply root_pos, Hx).
    rewrite !root_of_pos, Rpower_mult by exact Hx. f_equal.
    rewrite Pos2Z.inj_mul, mult_IZR. field. split; apply IZR_neq; discriminate.
Qed.

Lemma root_pow (n : positive) (x : R) (k : nat) : root n (x ^ k) = root n x ^ k.
Proof.
  induction k as [|k IH]; cbn [pow]; [apply root_of_1 | rewrite root_mult, IH; reflexivity].
Qed.

Lemma root_pow_self (n : positive) (x : R) : root_dom n x -> root n x ^ Pos.to_nat n = x.
Proof.
  intros [->|[N P]]; [rewrite root_1; apply pow_1|].
  destruct (Rtotal_order x 0) as [L|[?|G]]; [|contradiction|exact (root_pos_pow n x G)].
  destruct (Z.even (Zpos n)) eqn:E; [specialize (P eq_refl); lra|].
  rewrite <- (Ropp_involutive x), root_opp, pow_opp, E, root_pos_pow by lra. reflexivity.
Qed.

Lemma root_dom_one (n : positive) : root_dom n 1.
Proof. right. split; [|intros _]; lra. Qed.

Lemma root_dom_mult (n : positive) (x y : R) : root_dom n x -> root_dom n y -> root_dom n (x * y).
Proof.
  intros [H|[Nx Px]] [H'|[Ny Py]]; try (left; assumption). right. split.
  - apply Rmult_integral_contrapositive_currified; assumption.
  - intro E. apply Rmult_lt_0_compat; auto.
Qed.

Lemma root_dom_root (n m : positive) (x : R) :
  root_dom (n * m) x <-> root_dom m x /\ root_dom n (root m x).
Proof.
  destruct (Pos.eq_dec m 1) as [->|Hm].
  { rewrite Pos.mul_1_r, root_1. split; [intro H; split; [left; reflexivity | exact H] | tauto]. }
  destruct (Pos.eq_dec n 1) as [->|Hn].
  { rewrite Pos.mul_1_l. split; [intro H; split; [exact H | left; reflexivity] | tauto]. }
  unfold root_dom. rewrite Pos2Z.inj_mul, Z.even_mul, orb_true_iff. split.
  - intros [H|[N P]]; [apply Pos.mul_eq_1_l in H; contradiction|].
    split; right; (split; [auto using root_nonzero|]); intro E; [|apply root_pos]; tauto.
  - intros [[?|[N Pm]] [?|[_ Pn]]]; try contradiction. right. split; [exact N|].
    intros [E|E]; [exact (root_pos_inv m x (Pn E)) | exact (Pm E)].
Qed.

(** both indices even is the instance KF-ROOT is about *)
Lemma root_dom_pow (n m : positive) (x : R) :
  Z.even (Zpos n) && Z.even (Zpos m) = false ->
  root_dom n (x ^ Pos.to_nat m) -> root_dom n x.
Proof.
  intros E [H|[N P]]; [left; exact H | right]. split.
  - intros ->. apply N, pow_i, Pos2Nat.is_pos.
  - intro En. rewrite En in E. exact (pow_odd_pos_inv m x E (P En)).
Qed.

Lemma root_dom_opp (n : positive) (x : R) :
  Z.even (Zpos n) = false -> root_dom n (- x) -> root_dom n x.
Proof.
  intros E [H|[N _]]; [left; exact H | right]. split; [lra | congruence].
Qed.

Lemma root_dom_inv (n : positive) (x : R) : root_dom n (/ x) -> root_dom n x.
Proof.
  intros [H|[N P]]; [left; exact H | right]. split.
  - intros ->. apply N, Rinv_0.
  - intro E. exact (Rinv_pos_inv x (P E)).
Qed.
