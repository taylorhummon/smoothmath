(** C04: reverse-mode accumulation agrees with forward mode, for every variable at once.  Ring
    reasoning over the node equations of DerivFacts.v: where forward mode multiplies the operand's
    partial by a factor, reverse mode multiplies the incoming multiplier by the same factor. *)
From Coq Require Import Reals ZArith List Bool Lra.
From SM Require Import Num Syntax Outcome MathFun Eval Forward Reverse RInst Denote Spec.
From SM.proofs Require Import SyntaxFacts RInstFacts EvalSound DerivLemmas DerivFacts Deriv.
Import ListNotations.
Open Scope R_scope.

(** ** The accumulator (a dict read with default 0) *)

Lemma RV_acc_get_add (acc : accum (T:=R)) x c v :
  acc_get RInst (acc_add RInst acc x c) v =
  acc_get RInst acc v + (if name_eqb x v then c else 0).
Proof.
  unfold acc_add, acc_get at 1. rewrite lookup_acc_set.
  destruct (name_eqb x v) eqn:E; [|symmetry; apply Rplus_0_r].
  apply name_eqb_eq in E. subst v. reflexivity.
Qed.

Lemma RV_acc_get_nil v : acc_get RInst (@nil (name * R)) v = 0.
Proof. reflexivity. Qed.

Section R.
  Hypothesis Heval : C01_eval_sound.

  Definition Pacc (p : point R) (e : expr R) : Prop :=
    admits p e -> forall m acc,
    exists acc', rev RInst p e m acc = Val acc' /\
      forall v, exists d, fwdR v p e = Val d /\
        acc_get RInst acc' v = acc_get RInst acc v + m * d.

  Lemma two_case p a b : Pacc p a -> Pacc p b -> admits p a -> admits p b -> forall ma mb acc,
    exists acc', (acc1 <- rev RInst p a ma acc ;; rev RInst p b mb acc1) = Val acc' /\
      forall v, exists da db, fwdR v p a = Val da /\ fwdR v p b = Val db /\
        acc_get RInst acc' v = acc_get RInst acc v + (ma * da + mb * db).
  Proof.
    intros IHa IHb Ha Hb ma mb acc.
    destruct (IHa Ha ma acc) as (acc1 & E1 & H1). rewrite E1. cbn [bind].
    destruct (IHb Hb mb acc1) as (acc2 & E2 & H2). exists acc2. split; [exact E2|]. intro v.
    destruct (H1 v) as (da & Eda & A1). destruct (H2 v) as (db & Edb & A2).
    exists da, db. rewrite A2, A1. repeat split; try assumption. ring.
  Qed.

  (* [ms i], the multiplier pushed to operand [i] of a sum or product, is [m] times the weight
     [g i] that forward mode gives to that operand's partial *)
  Lemma seq_case p (m : R) (ms : nat -> R) (g : nat -> R -> R) :
    (forall i d, ms i * d = m * g i d) ->
    forall l, Forall (Pacc p) l -> Forall (admits p) l -> forall i acc,
    exists acc', rev_each RInst p ms i l acc = Val acc' /\
      forall v, exists ds, sequence (map (fwdR v p) l) = Val ds /\
        acc_get RInst acc' v =
        acc_get RInst acc v + m * fold_right Rplus 0 (mapi_from i g ds).
  Proof.
    intro Hg. induction l as [|x r IH]; intros HP Hok i acc.
    - exists acc. split; [reflexivity|]. intro v. exists []. split; [reflexivity|].
      cbn [mapi_from fold_right]. ring.
    - inversion HP as [|? ? HPx HPr]; subst. inversion Hok as [|? ? Hx Hr]; subst.
      cbn [rev_each]. destruct (HPx Hx (ms i) acc) as (acc1 & E1 & H1). rewrite E1. cbn [bind].
      destruct (IH HPr Hr (S i) acc1) as (acc2 & E2 & H2). exists acc2. split; [exact E2|].
      intro v. destruct (H1 v) as (d & Ed & A1). destruct (H2 v) as (ds & Eds & A2).
      exists (d :: ds). cbn [map sequence]. rewrite Ed, Eds. split; [reflexivity|].
      cbn [mapi_from fold_right]. rewrite A2, A1, Hg. ring.
  Qed.

  Lemma unary_case p e : is_unary e = true -> Pacc p (inner_of e) -> Pacc p e.
  Proof.
    intros Hu IH Hok m acc. rewrite (rev_unary_adm Heval p e m acc Hu Hok).
    destruct (IH (admits_inner p e Hok) (dfac (env_of p) e * m) acc) as (acc' & E & H).
    exists acc'. split; [exact E|]. intro v. destruct (H v) as (d & Ed & A).
    exists (dfac (env_of p) e * d). split; [apply (fwd_unary_adm Heval); assumption|].
    rewrite A. ring.
  Qed.

  Lemma rev_acc_all p : forall e, Pacc p e.
  Proof.
    induction e as [c|x|l IHl|l IHl|a b IHa IHb|a b IHa IHb|a b IHa IHb|e Hu IH]
      using expr_ind_unary; [| | | | | | |exact (unary_case p e Hu IH)]; intros Hok m acc.
    - exists acc. split; [reflexivity|]. intro v. exists 0. split; [reflexivity | ring].
    - exists (acc_add RInst acc x m). split; [reflexivity|]. intro v.
      cbn [fwd]. rewrite RV_acc_get_add.
      destruct (name_eqb x v); [exists 1 | exists 0]; (split; [reflexivity | ring]).
    - rewrite rev_Add.
      destruct (seq_case p m (fun _ => m) (fun _ d => d) (fun _ _ => eq_refl) l IHl
                  (admits_Add p l Hok) 0%nat acc) as (acc' & E & H).
      exists acc'. split; [exact E|]. intro v. destruct (H v) as (ds & Eds & A).
      exists (fold_right Rplus 0 ds). cbn [fwd]. rewrite Eds. split; [reflexivity|].
      rewrite A, mapi_from_id. reflexivity.
    - (* operand i of a product receives m * prod_{j<>i} v_j *)
      pose proof (admits_Mul p l Hok) as Hl.
      rewrite rev_Mul, (admits_eval_list Heval p l Hl). cbn [bind].
      set (vs := map (denote (env_of p)) l).
      assert (Hg : forall i d, mf_multiply RInst (m :: remove_nth i vs) * d
                               = m * mf_multiply RInst (d :: remove_nth i vs)).
      { intros i d. rewrite !mf_multiply_R. cbn [fold_right]. ring. }
      destruct (seq_case p m _ _ Hg l IHl Hl 0%nat acc) as (acc' & E & H).
      exists acc'. split; [exact E|]. intro v. destruct (H v) as (ds & Eds & A).
      cbn [fwd]. rewrite (admits_eval_list Heval p l Hl), Eds. cbn [bind].
      eexists. split; [reflexivity | exact A].
    - destruct (admits_Minus p a b Hok) as [Ha Hb]. cbn [rev].
      destruct (two_case p a b IHa IHb Ha Hb m (mf_negation RInst m) acc) as (acc' & E & H).
      exists acc'. split; [exact E|]. intro v. destruct (H v) as (da & db & Ea & Eb & A).
      exists (da - db). cbn [fwd]. rewrite Ea, Eb. split; [reflexivity|].
      rewrite A, mf_negation_R. ring.
    - destruct (admits_Divide p a b Hok) as (Ha & Hb & _). rewrite (rev_Divide_adm Heval) by exact Hok.
      edestruct (two_case p a b IHa IHb Ha Hb) with (acc := acc) as (acc' & E & H).
      exists acc'. split; [exact E|]. intro v. destruct (H v) as (da & db & Ea & Eb & A).
      eexists. split; [apply (fwd_Divide_adm Heval); eassumption|]. rewrite A. ring.
    - (* with the shortcut of Power nothing is pushed and forward mode returns 0 *)
      destruct (admits_Power p a b Hok) as (Ha & Hb & _).
      destruct (power_shortcut_adm Heval p a Ha) as (sc & Hsc & _).
      rewrite (rev_Power_adm Heval p a b m acc sc Hok Hsc).
      edestruct (two_case p a b IHa IHb Ha Hb) with (acc := acc) as (acc' & E & H).
      exists (if sc then acc else acc'). split; [destruct sc; [reflexivity | exact E]|].
      intro v. destruct (H v) as (da & db & Ea & Eb & A).
      eexists. split; [apply (fwd_Power_adm Heval); eassumption|].
      destruct sc; [ring | rewrite A; ring].
  Qed.

  Theorem rev_acc : C04_rev_acc.
  Proof. intros p e m acc Hw Hs Hd. exact (rev_acc_all p e (conj (conj Hw Hd) Hs) m acc). Qed.

  Theorem rev_sound : C04_rev_sound.
  Proof.
    intros p e enum Hw Hs Hd Hc.
    destruct (rev_acc p e 1 [] Hw Hs Hd) as (acc' & E & H).
    exists (numeric_partials_for RInst acc' enum). split.
    - unfold numeric_partials. change (n1 RInst) with 1. rewrite E. reflexivity.
    - intro v. destruct (H v) as (d & Ed & A). exists d. split; [exact Ed|].
      unfold located_component, numeric_partials_for.
      destruct (in_dec Pos.eq_dec v enum) as [Hin|Hnin].
      + rewrite (lookup_tabulate_in (acc_get RInst acc') v enum Hin), A, RV_acc_get_nil. ring.
      + (* v is not enumerated, hence does not occur: .get(v, 0) = 0 = forward value *)
        rewrite (lookup_tabulate_notin (acc_get RInst acc') v enum Hnin).
        assert (Hv : ~ In v (vars e)) by (intro Hv; apply Hnin, Hc, Hv).
        rewrite (fwd_absent Heval p e v Hw Hs Hd Hv) in Ed. injection Ed as <-. reflexivity.
  Qed.

End R.

(* Non-vacuity: the premises hold on a tree with a repeated variable, an n-ary product, a unary
   node and a quotient whose denominator is not identically non-zero, and on that tree the
   conclusion speaks of a successful reverse pass. *)
Definition RV_ex_e : expr R :=
  Divide (Mul [Var 1%positive; Sin (Var 2%positive); Var 1%positive])
         (Add [Var 2%positive; Const 1]).
Definition RV_ex_p : point R := [(1%positive, 2); (2%positive, 3)].

Example rev_premises_satisfiable :
  wfR RV_ex_e /\ supplies RV_ex_p RV_ex_e /\ InDomain (env_of RV_ex_p) RV_ex_e /\
  covers [2%positive; 1%positive] RV_ex_e.
Proof.
  unfold RV_ex_e, RV_ex_p. split; [|split; [|split]].
  - cbn. tauto.
  - intros x Hx. cbn in Hx.
    destruct Hx as [<-|[<-|[<-|[<-|[]]]]]; cbn; discriminate.
  - cbn. unfold env_of. cbn. repeat split. lra.
  - intros x Hx. cbn in Hx. cbn.
    destruct Hx as [<-|[<-|[<-|[<-|[]]]]]; tauto.
Qed.

Example rev_acc_instance (Heval : C01_eval_sound) :
  exists acc', rev RInst RV_ex_p RV_ex_e 1 [] = Val acc' /\
    forall v, exists d, fwdR v RV_ex_p RV_ex_e = Val d /\ acc_get RInst acc' v = d.
Proof.
  destruct rev_premises_satisfiable as [Hw [Hs [Hd _]]].
  destruct (rev_acc Heval RV_ex_p RV_ex_e 1 [] Hw Hs Hd) as [acc' [E H]].
  exists acc'. split; [exact E|]. intro v. destruct (H v) as [d [Ed Ha]].
  exists d. split; [exact Ed|]. rewrite Ha. rewrite RV_acc_get_nil. ring.
Qed.

(* Stated for its own sake; nothing uses it. *)
Lemma RV_mf_minus x y : mf_minus RInst x y = x - y.
Proof. reflexivity. Qed.

Check (rev_acc : C01_eval_sound -> C04_rev_acc).
Check (rev_sound : C01_eval_sound -> C04_rev_sound).
Print Assumptions rev_acc.
Print Assumptions rev_sound.
