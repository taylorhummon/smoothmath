(** Soundness ([refines]) of the rewrite rules of the classes Power, NthPower, NthRoot,
    Exponential, Logarithm, and the KF-ROOT findings.  Each rule fires on one shape only, and on
    that shape the claim is one law of [Rpower], [pow] or [root] for the value and, for the rules
    about [NthRoot], one [root_dom_*] lemma for the domain. *)
From Coq Require Import Reals ZArith List Bool String Lra.
From SM Require Import Num Syntax Eval Rules Driver RInst Denote Spec.
From SM.proofs Require Import SyntaxFacts RInstFacts RefinesFacts.
Import ListNotations.
Open Scope R_scope.

Local Notation E := (expr R).

Lemma RB_odd_even (n : positive) : Z.odd (Zpos n) = true -> Z.even (Zpos n) = false.
Proof. intro H; rewrite <- Z.negb_odd, H; reflexivity. Qed.

Lemma RB_Rint_eq (x : R) (z : Z) : Rint x = Some z -> x = IZR z.
Proof.
  unfold Rint. destruct (Req_EM_T x (IZR (Int_part x))) as [E|E]; [|discriminate].
  intro H; inversion H; subst. exact E.
Qed.

(** A rule is sound wherever it fires, the even/even root-of-power instance excepted *)
Definition RB_sound (r : rule (T:=R)) : Prop :=
  forall e e', snd r e = Some e' -> bad_label (LRule (fst r) e) = false -> refines e e'.

Lemma RB_sound_of r : rule_sound (snd r) -> RB_sound r.
Proof. intros H e e' E _. exact (H e e' E). Qed.

Lemma reduce_u_to_the_one_sound : rule_sound (reduce_u_to_the_one RInst).
Proof.
  intros e e' H. rule_shape e u v n. const_shape v c. cbn [reduce_u_to_the_one] in H.
  destruct (neqb RInst c (n1 RInst)) eqn:C; [|discriminate]. apply Reqb_true in C as ->. injection H as <-.
  rule_intro. intros rho _ (D & _ & P). split; [exact D|]. symmetry. apply Rpower_1, P.
Qed.

Lemma reduce_u_to_the_zero_sound : rule_sound (reduce_u_to_the_zero RInst).
Proof.
  intros e e' H. rule_shape e u v n. const_shape v c. cbn [reduce_u_to_the_zero] in H.
  destruct (neqb RInst c (n0 RInst)) eqn:C; [|discriminate]. apply Reqb_true in C as ->. injection H as <-.
  rule_intro. intros rho _ (_ & _ & P). split; [exact I|]. symmetry. apply Rpower_O, P.
Qed.

Lemma reduce_one_to_the_u_sound : rule_sound (reduce_one_to_the_u RInst).
Proof.
  intros e e' H. rule_shape e u v n. const_shape u c. cbn [reduce_one_to_the_u] in H.
  destruct (neqb RInst c (n1 RInst)) eqn:C; [|discriminate]. apply Reqb_true in C as ->. injection H as <-.
  rule_intro. intros rho _ _. split; [exact I|]. symmetry. apply Rpower_one_base.
Qed.

Lemma reduce_u_to_the_n_at_least_two_sound : rule_sound (reduce_u_to_the_n_at_least_two RInst).
Proof.
  intros e e' H. rule_shape e u v n. const_shape v c. cbn [reduce_u_to_the_n_at_least_two] in H.
  destruct (nint RInst c) as [z|] eqn:C; [|discriminate]. apply RB_Rint_eq in C as ->.
  destruct (Z.leb 2 z) eqn:Z; [|discriminate]. injection H as <-.
  destruct z as [|p|p]; try discriminate Z.
  rule_intro. intros rho _ (D & _ & P). split; [exact D|]. symmetry. apply Rpower_Zpos, P.
Qed.

Lemma reduce_u_to_the_negative_one_sound : rule_sound (reduce_u_to_the_negative_one RInst).
Proof.
  intros e e' H. rule_shape e u v n. const_shape v c. cbn [reduce_u_to_the_negative_one] in H.
  destruct (neqb RInst c (nm1 RInst)) eqn:C; [|discriminate]. apply Reqb_true in C as ->. injection H as <-.
  rule_intro. intros rho _ (D & _ & P). split; [split; [exact D|lra]|].
  change (nm1 RInst) with (- (1)). rewrite Rpower_Ropp, Rpower_1 by exact P. reflexivity.
Qed.

Lemma reduce_power_with_constant_base_sound : rule_sound (reduce_power_with_constant_base RInst).
Proof.
  intros e e' H. rule_shape e u v n. const_shape u c. cbn [reduce_power_with_constant_base] in H.
  destruct (nltb RInst (n0 RInst) c) eqn:C; [|discriminate].
  destruct (neqb RInst c (n1 RInst)); [discriminate|]. injection H as <-.
  rule_intro. intros rho _ (_ & D & _). split; [exact D|reflexivity].
Qed.

Lemma reduce_power_of_power_sound : rule_sound reduce_power_of_power.
Proof.
  intros e e' H. rule_shape e u w n. rule_shape u u v n. injection H as <-.
  rule_intro. intros rho _ ((Du & Dv & P) & Dw & _). split; [tauto|].
  rewrite Rpower_mult. f_equal. ring.
Qed.

Lemma reduce_u_to_the_negation_of_v_sound : rule_sound reduce_u_to_the_negation_of_v.
Proof.
  intros e e' H. rule_shape e u w n. rule_shape w v v2 n. injection H as <-.
  rule_intro. intros rho _ D. split; [split; [tauto|apply Rgt_not_eq, Rpower_pos]|].
  symmetry. apply Rpower_Ropp.
Qed.

Lemma reduce_reciprocal_u_to_the_v_sound : rule_sound reduce_reciprocal_u_to_the_v.
Proof.
  intros e e' H. rule_shape e w v n. rule_shape w u u2 n. injection H as <-.
  rule_intro. intros rho _ ((Du & _) & Dv & P). apply Rinv_pos_inv in P.
  split; [split; [tauto|apply Rgt_not_eq, Rpower_pos]|]. symmetry. apply Rpower_inv_base, P.
Qed.

Lemma reduce_nth_power_where_n_is_one_sound : rule_sound reduce_nth_power_where_n_is_one.
Proof.
  intros e e' H. rule_shape e u v n. cbn [reduce_nth_power_where_n_is_one] in H.
  destruct (Pos.eqb n 1) eqn:N; [|discriminate]. apply Pos.eqb_eq in N as ->. injection H as <-.
  rule_intro. intros rho _ D. split; [exact D|]. symmetry. apply pow_1.
Qed.

Lemma RB_div_gcd (m g : positive) :
  (g | m)%positive -> m = (g * Z.to_pos (Zpos m / Zpos g))%positive.
Proof.
  intros [r ->]. rewrite Pos2Z.inj_mul, Z.div_mul by discriminate. apply Pos.mul_comm.
Qed.

(* with g the common divisor, m = g m' and n = g n':
   root (g m') x ^ (g n') = (root g (root m' x) ^ g) ^ n' = root m' x ^ n' *)
Lemma reduce_nth_power_of_mth_root_sound : rule_sound reduce_nth_power_of_mth_root.
Proof.
  intros e e' H. rule_shape e w v n. rule_shape w u u2 m. cbn [reduce_nth_power_of_mth_root] in H.
  destruct (Pos.eqb m n) eqn:Emn.
  - apply Pos.eqb_eq in Emn as ->. injection H as <-.
    rule_intro. intros rho _ (D & Hdom). split; [exact D|]. symmetry. apply root_pow_self, Hdom.
  - destruct (Pos.eqb (Pos.gcd m n) 1); [discriminate|]. injection H as <-.
    pose proof (RB_div_gcd m _ (Pos.gcd_divide_l m n)) as Hm.
    pose proof (RB_div_gcd n _ (Pos.gcd_divide_r m n)) as Hn.
    revert Hm Hn. generalize (Z.to_pos (Z.pos m / Z.pos (Pos.gcd m n))) as m'.
    generalize (Z.to_pos (Z.pos n / Z.pos (Pos.gcd m n))) as n'.
    generalize (Pos.gcd m n) as g. intros g n' m' -> ->.
    rule_intro. intros rho _ (D & Hdom). apply root_dom_root in Hdom. destruct Hdom as [Dm Dg].
    split; [exact (conj D Dm)|].
    rewrite <- root_root, Pos2Nat.inj_mul, pow_mult, root_pow_self by exact Dg. reflexivity.
Qed.

Lemma reduce_nth_power_of_mth_power_sound : rule_sound reduce_nth_power_of_mth_power.
Proof.
  intros e e' H. rule_shape e w v n. rule_shape w u u2 m. injection H as <-.
  rule_intro. intros rho _ D. split; [exact D|].
  rewrite Pos2Nat.inj_mul, Nat.mul_comm, pow_mult. reflexivity.
Qed.

Lemma reduce_nth_power_of_negation_sound : rule_sound reduce_nth_power_of_negation.
Proof.
  intros e e' H. rule_shape e w v n. rule_shape w u u2 m. cbn [reduce_nth_power_of_negation] in H.
  assert (V : forall rho, denote rho e' = denote rho (NthPow (Neg u) n)).
  { intro rho. cbn [denote]. rewrite pow_opp. destruct (Z.even (Zpos n)); injection H as <-; reflexivity. }
  destruct (Z.even (Zpos n)); injection H as <-; rule_intro; intros rho _ D; exact (conj D (V rho)).
Qed.

Lemma reduce_nth_power_of_reciprocal_sound : rule_sound reduce_nth_power_of_reciprocal.
Proof.
  intros e e' H. rule_shape e w v n. rule_shape w u u2 m. injection H as <-.
  rule_intro. intros rho _ [D N]. split; [split; [exact D|apply pow_nonzero, N]|].
  symmetry. apply pow_inv.
Qed.

Lemma reduce_nth_power_of_exponential_sound : rule_sound (reduce_nth_power_of_exponential RInst).
Proof.
  intros e e' H. rule_shape e w v n. rule_shape w u b m. injection H as <-.
  rule_intro. intros rho _ D. split; [tauto|].
  rewrite <- Rpower_Zpos, Rpower_mult by apply Rpower_pos. f_equal. cbn [nofZ RInst]. ring.
Qed.

Lemma reduce_nth_root_where_n_is_one_sound : rule_sound reduce_nth_root_where_n_is_one.
Proof.
  intros e e' H. rule_shape e u v n. cbn [reduce_nth_root_where_n_is_one] in H.
  destruct (Pos.eqb n 1) eqn:N; [|discriminate]. apply Pos.eqb_eq in N as ->. injection H as <-.
  rule_intro. intros rho _ D. split; [tauto|]. symmetry. apply root_1.
Qed.

(** the VALUE of root-of-power is preserved at every point (under [denote], whose [root]
    keeps the sign): only the DOMAIN can shrink, in the even/even case *)
Lemma reduce_nth_root_of_mth_power_value :
  forall (e e' : expr R) (rho : env),
    reduce_nth_root_of_mth_power e = Some e' -> denote rho e' = denote rho e.
Proof.
  intros e e' rho H. rule_shape e w v n. rule_shape w u u2 m. injection H as <-.
  symmetry. apply root_pow.
Qed.

Lemma reduce_nth_root_of_mth_power_sound :
  RB_sound ("_reduce_nth_root_of_mth_power"%string, reduce_nth_root_of_mth_power).
Proof.
  intros e e' H Hbad. pose proof (fun rho => reduce_nth_root_of_mth_power_value e e' rho H) as Hval.
  cbn [fst snd] in *. rule_shape e w v n. rule_shape w u u2 m. injection H as <-.
  change (Z.even (Zpos n) && Z.even (Zpos m) = false) in Hbad.
  rule_intro. intros rho _ (D & Hdom). split; [|apply Hval].
  exact (conj D (root_dom_pow n m _ Hbad Hdom)).
Qed.

Lemma reduce_nth_root_of_mth_root_sound : rule_sound reduce_nth_root_of_mth_root.
Proof.
  intros e e' H. rule_shape e w v n. rule_shape w u u2 m. injection H as <-.
  rule_intro. intros rho _ ((D & Hm) & Hn). split; [|symmetry; apply root_root].
  exact (conj D (proj2 (root_dom_root n m _) (conj Hm Hn))).
Qed.

Lemma reduce_odd_nth_root_of_negation_sound : rule_sound reduce_odd_nth_root_of_negation.
Proof.
  intros e e' H. rule_shape e w v n. rule_shape w u u2 m. cbn [reduce_odd_nth_root_of_negation] in H.
  destruct (Z.odd (Zpos n)) eqn:Od; [|discriminate]. apply RB_odd_even in Od. injection H as <-.
  rule_intro. intros rho _ (D & Hdom). split; [|symmetry; apply root_opp].
  exact (conj D (root_dom_opp n _ Od Hdom)).
Qed.

Lemma reduce_nth_root_of_reciprocal_sound : rule_sound reduce_nth_root_of_reciprocal.
Proof.
  intros e e' H. rule_shape e w v n. rule_shape w u u2 m. injection H as <-.
  rule_intro. intros rho _ ((D & N) & Hdom). split; [|symmetry; apply root_inv].
  exact (conj (conj D (root_dom_inv n _ Hdom)) (root_nonzero n _ N)).
Qed.

Lemma reduce_exponential_of_logarithm_sound : rule_sound (reduce_exponential_of_logarithm RInst).
Proof.
  intros e e' H. rule_shape e w b n. rule_shape w u b' m. cbn [reduce_exponential_of_logarithm] in H.
  destruct (neqb RInst b b') eqn:B; [|discriminate]. apply Reqb_true in B as <-. injection H as <-.
  rule_intro. intros rho W (D & P). apply proj2, wf_Log_R in W. destruct W as (Hb & Hb1 & _).
  split; [exact D|]. symmetry. exact (Rpower_Rlog b _ Hb1 Hb P).
Qed.

Lemma reduce_exponential_of_negation_sound : rule_sound reduce_exponential_of_negation.
Proof.
  intros e e' H. rule_shape e w b n. rule_shape w u u2 m. injection H as <-.
  rule_intro. intros rho _ D. split; [split; [exact D|apply Rgt_not_eq, Rpower_pos]|].
  symmetry. apply Rpower_Ropp.
Qed.

Lemma reduce_logarithm_of_exponential_sound : rule_sound (reduce_logarithm_of_exponential RInst).
Proof.
  intros e e' H. rule_shape e w b n. rule_shape w u b' m. cbn [reduce_logarithm_of_exponential] in H.
  destruct (neqb RInst b b') eqn:B; [|discriminate]. apply Reqb_true in B as <-. injection H as <-.
  rule_intro. intros rho W (D & _). apply wf_Log_R in W. destruct W as (Hb & Hb1 & _).
  split; [exact D|]. rewrite ln_Rpower. field. exact (ln_neq_0 b Hb1 Hb).
Qed.

Lemma reduce_logarithm_of_reciprocal_sound : rule_sound reduce_logarithm_of_reciprocal.
Proof.
  intros e e' H. rule_shape e w b n. rule_shape w u u2 m. injection H as <-.
  rule_intro. intros rho _ ((D & _) & P). apply Rinv_pos_inv in P.
  split; [tauto|]. rewrite ln_Rinv by exact P. unfold Rdiv. ring.
Qed.

Lemma reduce_logarithm_of_nth_power_sound : rule_sound (reduce_logarithm_of_nth_power RInst).
Proof.
  intros e e' H. rule_shape e w b n. rule_shape w u u2 m. cbn [reduce_logarithm_of_nth_power] in H.
  destruct (Z.odd (Zpos m)) eqn:Od; [|discriminate]. apply RB_odd_even in Od. injection H as <-.
  rule_intro. intros rho _ (D & P). apply (pow_odd_pos_inv m _ Od) in P.
  split; [tauto|]. rewrite <- Rpower_Zpos, ln_Rpower by exact P. cbn [nofZ RInst]. unfold Rdiv. ring.
Qed.

(** ** KF-ROOT: the even/even instance of root-of-power *)

(** [C08_root_of_power_refuted] (a VALUE discrepancy) is false as stated in Spec.v:
    [Denote.root] keeps the sign for every n, so  root n (x^m) = (root n x)^m  everywhere
    (e.g. n = m = 2, x = -3: both sides are 3). *)
Theorem root_of_power_refuted_is_false : ~ C08_root_of_power_refuted.
Proof.
  intros (e & e' & rho & H & _ & _ & Hne). apply Hne.
  apply reduce_nth_root_of_mth_power_value; assumption.
Qed.

Definition RB_kf : E := NthRoot (NthPow (Var 1%positive) 2) 2.

Lemma RB_kf_defined : InDomain (fun _ => -3) RB_kf /\ denote (fun _ => -3) RB_kf = 3.
Proof.
  cbn [RB_kf InDomain denote]. change (Pos.to_nat 2) with 2%nat. split.
  - split; [exact I|]. right. split; [|intros _]; cbn [pow]; lra.
  - replace ((-3) ^ 2) with (3 ^ 2) by ring.
    rewrite root_pow. apply (root_pow_self 2). right. split; [|intros _]; lra.
Qed.

(** the refutation that holds of the even/even instance: [refines] fails
    (the value is 3 on the left, the right is outside its domain) *)
Theorem root_of_power_refuted_corrected :
  exists (e e' : expr R) (rho : env),
    reduce_nth_root_of_mth_power e = Some e' /\ wfR e /\ InDomain rho e /\
    bad_label (LRule "_reduce_nth_root_of_mth_power" e) = true /\
    denote rho e = 3 /\
    ~ (InDomain rho e' /\ denote rho e' = denote rho e).
Proof.
  destruct RB_kf_defined as [D V].
  exists RB_kf, (NthPow (NthRoot (Var 1%positive) 2) 2), (fun _ => -3).
  split; [reflexivity|]. split; [exact I|]. split; [exact D|].
  split; [reflexivity|]. split; [exact V|].
  cbn [InDomain denote]. intros [[_ [H|[_ H]]] _]; [discriminate|]. specialize (H eq_refl). lra.
Qed.

Theorem root_of_power_domain_refuted : C08_root_of_power_domain_refuted.
Proof.
  destruct root_of_power_refuted_corrected as (e & e' & rho & H & W & D & _ & _ & N).
  exists e, e', rho. split; [exact H|]. split; [exact W|]. split; [exact D|].
  intro D'. apply N. split; [exact D'|]. exact (reduce_nth_root_of_mth_power_value e e' rho H).
Qed.

(** the value discrepancy "3 versus -3" needs TWO rule applications: root-of-power
    (even/even) followed by power-of-root with equal indices, which legitimately enlarges the
    domain of its own input:  NthRoot (NthPow x 2) 2  ->  NthPow (NthRoot x 2) 2  ->  x *)
Theorem root_of_power_two_step_value_refuted :
  exists (e0 e1 : expr R) (x : name) (rho : env),
    reduce_nth_root_of_mth_power e0 = Some e1 /\
    reduce_nth_power_of_mth_root e1 = Some (Var x) /\
    wfR e0 /\ InDomain rho e0 /\
    denote rho e0 = 3 /\ denote rho (Var x) = -3 /\
    denote rho (Var x) <> denote rho e0.
Proof.
  destruct RB_kf_defined as [D V].
  exists RB_kf, (NthPow (NthRoot (Var 1%positive) 2) 2), 1%positive, (fun _ => -3).
  split; [reflexivity|]. split; [reflexivity|]. split; [exact I|]. split; [exact D|].
  split; [exact V|]. split; [reflexivity|]. rewrite V. cbn [denote]. lra.
Qed.

Corollary root_of_power_not_refines :
  exists e e' : expr R, reduce_nth_root_of_mth_power e = Some e' /\ ~ refines e e'.
Proof.
  destruct root_of_power_domain_refuted as (e & e' & rho & H & Hwf & HD & HnD).
  exists e, e'. split; [assumption|]. intro Href.
  destruct (Href Hwf) as (_ & _ & Hall). destruct (Hall rho HD) as [HD' _]. contradiction.
Qed.

Lemma sound_Power : Forall RB_sound (reducers_Power RInst).
Proof.
  repeat apply Forall_cons; [..|apply Forall_nil]; apply RB_sound_of.
  - exact reduce_u_to_the_one_sound.
  - exact reduce_u_to_the_zero_sound.
  - exact reduce_one_to_the_u_sound.
  - exact reduce_u_to_the_n_at_least_two_sound.
  - exact reduce_u_to_the_negative_one_sound.
  - exact reduce_power_with_constant_base_sound.
  - exact reduce_power_of_power_sound.
  - exact reduce_u_to_the_negation_of_v_sound.
  - exact reduce_reciprocal_u_to_the_v_sound.
Qed.

Lemma sound_NthPower : Forall RB_sound (reducers_NthPower RInst).
Proof.
  repeat apply Forall_cons; [..|apply Forall_nil]; apply RB_sound_of.
  - exact reduce_nth_power_where_n_is_one_sound.
  - exact reduce_nth_power_of_mth_root_sound.
  - exact reduce_nth_power_of_mth_power_sound.
  - exact reduce_nth_power_of_negation_sound.
  - exact reduce_nth_power_of_reciprocal_sound.
  - exact reduce_nth_power_of_exponential_sound.
Qed.

Lemma sound_NthRoot : Forall RB_sound (reducers_NthRoot (T:=R)).
Proof.
  repeat apply Forall_cons; [..|apply Forall_nil].
  - apply RB_sound_of. exact reduce_nth_root_where_n_is_one_sound.
  - exact reduce_nth_root_of_mth_power_sound.
  - apply RB_sound_of. exact reduce_nth_root_of_mth_root_sound.
  - apply RB_sound_of. exact reduce_odd_nth_root_of_negation_sound.
  - apply RB_sound_of. exact reduce_nth_root_of_reciprocal_sound.
Qed.

Lemma sound_Exponential : Forall RB_sound (reducers_Exponential RInst).
Proof.
  repeat apply Forall_cons; [..|apply Forall_nil]; apply RB_sound_of.
  - exact reduce_exponential_of_logarithm_sound.
  - exact reduce_exponential_of_negation_sound.
Qed.

Lemma sound_Logarithm : Forall RB_sound (reducers_Logarithm RInst).
Proof.
  repeat apply Forall_cons; [..|apply Forall_nil]; apply RB_sound_of.
  - exact reduce_logarithm_of_exponential_sound.
  - exact reduce_logarithm_of_reciprocal_sound.
  - exact reduce_logarithm_of_nth_power_sound.
Qed.

Theorem rules_sound_B :
  forall nm f (e e' : expr R),
    In (nm, f) (reducers_Power RInst ++ reducers_NthPower RInst ++ reducers_NthRoot ++
                reducers_Exponential RInst ++ reducers_Logarithm RInst) ->
    f e = Some e' -> bad_label (LRule nm e) = false -> refines e e'.
Proof.
  intros nm f e e' Hin. refine (proj1 (Forall_forall RB_sound _) _ (nm, f) Hin e e').
  repeat (apply Forall_app; split).
  - exact sound_Power.
  - exact sound_NthPower.
  - exact sound_NthRoot.
  - exact sound_Exponential.
  - exact sound_Logarithm.
Qed.

Example rules_sound_B_nonvacuous :
  refines (NthPow (NthRoot (Add [Var 1%positive; Const 1]) 6) 4)
          (NthPow (NthRoot (Add [Var 1%positive; Const 1]) 3) 2)
  /\ refines (NthRoot (NthPow (Var 1%positive) 2) 3) (NthPow (NthRoot (Var 1%positive) 3) 2).
Proof.
  split.
  - apply (rules_sound_B "_reduce_nth_power_of_mth_root" reduce_nth_power_of_mth_root);
      [refine (List.nth_error_In _ 10%nat _)|..]; reflexivity.
  - apply (rules_sound_B "_reduce_nth_root_of_mth_power" reduce_nth_root_of_mth_power);
      [refine (List.nth_error_In _ 16%nat _)|..]; reflexivity.
Qed.

(** ** Stated for their own sake; nothing above uses them *)

Lemma RB_IZRpos_pos (n : positive) : 0 < IZR (Zpos n).
Proof. apply IZR_lt; reflexivity. Qed.

Lemma RB_pow_pos (n : positive) (x : R) : 0 < x -> 0 < x ^ Pos.to_nat n.
Proof. apply pow_lt. Qed.

Lemma RB_pow_neg_even (n : positive) (x : R) :
  Z.even (Zpos n) = true -> x < 0 -> 0 < x ^ Pos.to_nat n.
Proof. intros H Hx. rewrite <- (Ropp_involutive x), pow_opp, H. apply pow_lt; lra. Qed.

Print Assumptions rules_sound_B.
Print Assumptions root_of_power_refuted_is_false.
Print Assumptions root_of_power_domain_refuted.
Print Assumptions root_of_power_refuted_corrected.
Print Assumptions root_of_power_two_step_value_refuted.
