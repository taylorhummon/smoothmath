(** The statements of Spec.v that combine several files, without premises.
    The two premises of Closure.v are discharged (all rules, constant folding); a synthesised
    partial, normalised, still denotes the partial derivative; the early and the located routes
    return what the late one does. *)
From Coq Require Import Reals ZArith List Bool String Lra.
From SM Require Import Num Syntax Outcome Eval Forward Reverse Synth Rules Driver
  Normalize Routes RInst Denote Spec.
From SM.proofs Require Import SyntaxFacts RInstFacts EvalSound DerivLemmas Deriv ReverseSound OutcomeKinds
  RefinesFacts RulesSoundA RulesSoundB Closure OrderIndep SynthSound.
Import ListNotations.
Open Scope R_scope.

(* class by class; a class without an even/even root-of-power instance goes through [RB_sound_of] *)
Theorem rules_sound : C08_rules_sound.
Proof.
  intros nm f e e' Hin. refine (proj1 (Forall_forall RB_sound _) _ (nm, f) Hin e e').
  unfold all_rules. repeat (apply Forall_app; split).
  - exact (Forall_impl _ RB_sound_of sound_Add).
  - exact (Forall_impl _ RB_sound_of sound_Minus).
  - exact (Forall_impl _ RB_sound_of sound_Negation).
  - exact (Forall_impl _ RB_sound_of sound_Multiply).
  - exact (Forall_impl _ RB_sound_of sound_Divide).
  - exact (Forall_impl _ RB_sound_of sound_Reciprocal).
  - exact sound_Power.
  - exact sound_NthPower.
  - exact sound_NthRoot.
  - exact sound_Exponential.
  - exact sound_Logarithm.
  - exact (Forall_impl _ RB_sound_of sound_Cosine).
  - exact (Forall_impl _ RB_sound_of sound_Sine).
Qed.

Lemma GL_var_free_supplies (p : point R) (e : expr R) : var_free e = true -> supplies p e.
Proof.
  intros H x Hx. rewrite (var_free_vars e H) in Hx. destruct Hx.
Qed.

Lemma GL_consolidate_inv (e e' : expr R) :
  consolidate RInst e = Some e' ->
  var_free e = true /\ exists v, evalR [] e = Val v /\ e' = Const v.
Proof.
  unfold consolidate. destruct (var_free e); [|discriminate]. intro Hc. split; [reflexivity|].
  assert (H : match evalR [] e with Val v => Some (Const v) | _ => None end = Some e')
    by (destruct e; [discriminate Hc | exact Hc ..]).
  destruct (evalR [] e) as [v| | |k]; try discriminate H. injection H as <-.
  exists v. split; reflexivity.
Qed.

Theorem consolidate_sound : C08_consolidate_sound.
Proof.
  intros e e' Hc. destruct (GL_consolidate_inv e e' Hc) as [Hvf [v [Ev ->]]].
  apply refines_intro; [intros _; exact I | apply incl_nil_l |]. intros rho Hwf _. split; [exact I|].
  destruct (eval_total [] e Hwf (GL_var_free_supplies [] e Hvf)) as [E|E]; rewrite Ev in E; [|discriminate].
  injection E as ->. apply (denote_ext e). intros x Hx. rewrite (var_free_vars e Hvf) in Hx. destruct Hx.
Qed.

Theorem step_sound_closed : C08_step_sound.
Proof. exact (step_sound rules_sound consolidate_sound). Qed.

Theorem fully_reduce_sound_closed : C08_fully_reduce_sound.
Proof. exact (fully_reduce_sound rules_sound consolidate_sound). Qed.

Theorem nfr_sound_closed : C08_nfr_sound.
Proof. exact (nfr_sound rules_sound consolidate_sound). Qed.

Theorem normalize_sound_closed : C08_normalize_sound.
Proof. exact (normalize_sound rules_sound consolidate_sound). Qed.

(** [synth_fwd_sound], then [normalize_sound_closed] along the good trace *)
Theorem as_expression_sound : C05_as_expression_sound.
Proof.
  intros fuel d rho e s v Hwf Hdom Hp Hgt.
  unfold partial_as_expression in Hp.
  destruct (synth_fwd_sound rho e v Hwf Hdom) as (W0 & V0 & D0 & T0).
  destruct (normalize_sound_closed fuel d _ _ Hp Hgt W0) as (W1 & V1 & R1).
  destruct (R1 rho D0) as [D1 E1].
  split; [exact W1|]. split; [|split].
  - eapply incl_tran; [exact V1 | exact V0].
  - exact D1.
  - rewrite E1. exact T0.
Qed.

Lemma GL_fwd_domerr p e v : wfR e -> evalR p e = DomErr -> fwdR v p e = DomErr.
Proof. intro W. exact (proj2 (fwd_tracks e p v W)). Qed.

Lemma GL_rev_domerr p e enum :
  wfR e -> evalR p e = DomErr -> numeric_partials RInst p e enum = DomErr.
Proof. intro W. exact (proj2 (tracks_map_l _ _ _ _ _ _ (rev_tracks e p _ _ W))). Qed.

Lemma GL_eval_cases p e :
  wfR e -> supplies p e ->
  (InDomain (env_of p) e /\ evalR p e = Val (denote (env_of p) e)) \/
  (~ InDomain (env_of p) e /\ evalR p e = DomErr).
Proof.
  intros W S. destruct (InDomain_dec (env_of p) e) as [D|D]; [left|right]; split; try exact D.
  - apply eval_sound; assumption.
  - apply (proj2 (eval_domerr_iff p e W S)). exact D.
Qed.

Lemma GL_supplies_incl p (e s : expr R) :
  incl (vars s) (vars e) -> supplies p e -> supplies p s.
Proof. intros Hi S x Hx. apply S. apply Hi. exact Hx. Qed.

(* inside the domain both routes return the true partial, which is unique; outside both fail *)
Theorem early_agrees : C06_early.
Proof.
  intros fuel d p e s v W S Hp Hgt. unfold at_via, partial_at_late.
  destruct (GL_eval_cases p e W S) as [[D E]|[D E]]; rewrite E; cbn [bind].
  - destruct (as_expression_sound fuel d (env_of p) e s v W D Hp Hgt) as (Ws & Vs & Ds & Ts).
    destruct (fwd_sound eval_sound p e v W S D) as [dd [Ef Tf]].
    rewrite Ef, (eval_sound p s Ws (GL_supplies_incl p e s Vs S) Ds). f_equal.
    exact (tp_unique (env_of p) v e _ _ Ts Tf).
  - symmetry. exact (GL_fwd_domerr p e v W E).
Qed.

(* [partial_at_late] is the forward derivative, which fails exactly where evaluation does *)
Theorem early_same_kind : C07_early.
Proof.
  intros fuel d p e s v W S Hp Hgt. rewrite (early_agrees fuel d p e s v W S Hp Hgt).
  exact (fwd_same_kind eval_total p e v W S).
Qed.

Theorem located_agrees : C06_located.
Proof.
  intros p e enum v W S Hc.
  unfold located_differential, differential_at_late, partial_at_late, component_of.
  destruct (GL_eval_cases p e W S) as [[D E]|[D E]].
  - destruct (rev_sound eval_sound p e enum W S D Hc) as [ps [En Hps]].
    destruct (Hps v) as [dd [Ef El]].
    rewrite E, En, Ef. cbn [bind]. rewrite El. split; reflexivity.
  - rewrite E, (GL_rev_domerr p e enum W E), (GL_fwd_domerr p e v W E). cbn [bind].
    split; reflexivity.
Qed.

Example GL_consolidate_example :
  exists v, consolidate RInst (Add [Const 1; Const 2]) = Some (Const v) /\ v = 3 /\
            refines (Add [Const 1; Const 2]) (Const v).
Proof.
  assert (E : consolidate RInst (Add [Const 1; Const 2]) = Some (Const (1 + (2 + 0)))).
  { unfold consolidate. cbn. reflexivity. }
  exists (1 + (2 + 0)). split; [exact E|]. split; [lra|].
  apply consolidate_sound. exact E.
Qed.

Example GL_consolidate_domerr :
  consolidate RInst (Recip (Const 0)) = None.
Proof.
  unfold consolidate. cbn. unfold verify_reciprocal. cbn.
  replace (Reqb 0 0) with true by (symmetry; apply Reqb_true; reflexivity).
  reflexivity.
Qed.

Local Notation x1 := (Var 1%positive).

(* d/dx1 sin x1 is synthesised as cos x1 * 1; one rule application removes the 1 *)
Lemma GL_ex_step1 :
  step_named RInst (Mul [Cos x1; Const 1]) =
  Some (LRule "_reduce_product_by_eliminating_ones" (Mul [Cos x1; Const 1]), Mul [Cos x1]).
Proof.
  cbn. unfold rules_at. cbn.
  replace (Reqb 1 0) with false by (symmetry; apply Reqb_false; lra).
  replace (Reqb 1 1) with true by (symmetry; apply Reqb_true; reflexivity).
  reflexivity.
Qed.

Example GL_step_instance : refines (Mul [Cos x1; Const 1]) (Mul [Cos x1]).
Proof. apply (step_sound_closed _ _ _ GL_ex_step1). reflexivity. Qed.

Lemma GL_fr_some fuel (e e' : expr R) lab :
  step_named RInst e = Some (lab, e') ->
  fully_reduce RInst (S fuel) e = fully_reduce RInst fuel e' /\
  reduce_trace RInst (S fuel) e = lab :: reduce_trace RInst fuel e'.
Proof. intro H. cbn [fully_reduce reduce_trace]. unfold step. rewrite H. split; reflexivity. Qed.

Lemma GL_fr_none fuel (e : expr R) :
  step_named RInst e = None ->
  fully_reduce RInst fuel e = e /\ reduce_trace RInst fuel e = [].
Proof.
  intro H. destruct fuel as [|f]; cbn [fully_reduce reduce_trace]; unfold step; rewrite ?H;
    split; reflexivity.
Qed.

(* the premises of C05_as_expression_sound / C07_early / C06_early, with a normalisation that
   takes a rule step and a normal-form rewrite (Mul [cos x1] becomes cos x1) *)
Example GL_as_expression_nonvacuous :
  let e : expr R := Sin x1 in
  let p : point R := [(1%positive, 0)] in
  wfR e /\ supplies p e /\
  partial_as_expression RInst 3 3 e 1%positive = Some (Cos x1) /\
  good_trace (normalize_trace RInst 3 3 (synth_fwd RInst 1%positive e)) = true.
Proof.
  cbv zeta. split; [exact I|]. split.
  { intros y [<-|[]]. cbn. discriminate. }
  unfold partial_as_expression, normalize, normalize_trace.
  change (synth_fwd RInst 1%positive (Sin x1)) with (Mul [Cos x1; Const 1] : expr R).
  destruct (GL_fr_some 2 _ _ _ GL_ex_step1) as [F1 T1].
  destruct (GL_fr_none 2 (Mul [Cos x1]) eq_refl) as [F2 T2].
  destruct (GL_fr_none 3 (Cos x1) eq_refl) as [F3 T3].
  rewrite F1, T1, F2, T2.
  cbn [nfr nfr_trace partition_by is_Recip filter negb omapM flat_map app].
  rewrite F3, T3. cbn. split; reflexivity.
Qed.

Example GL_early_instance :
  let e : expr R := Sin x1 in
  let p : point R := [(1%positive, 0)] in
  at_via RInst e (Cos x1) p = partial_at_late RInst e 1%positive p /\
  same_kind (at_via RInst e (Cos x1) p) (evalR p e) /\
  true_partial (env_of p) e 1%positive (denote (env_of p) (Cos x1)).
Proof.
  cbv zeta. destruct GL_as_expression_nonvacuous as (W & S & Hp & Hgt).
  split; [|split].
  - exact (early_agrees 3%nat 3%nat _ _ _ _ W S Hp Hgt).
  - exact (early_same_kind 3%nat 3%nat _ _ _ _ W S Hp Hgt).
  - apply (as_expression_sound 3%nat 3%nat (env_of [(1%positive, 0)]) _ _ _ W I Hp Hgt).
Qed.

(* C06_located on the tree of ReverseSound.v (repeated variable, product, quotient) *)
Example GL_located_instance (v : name) :
  component_of RInst (located_differential RInst RV_ex_e [2%positive; 1%positive] RV_ex_p) v =
  partial_at_late RInst RV_ex_e v RV_ex_p.
Proof.
  destruct rev_premises_satisfiable as (W & S & _ & C).
  exact (proj1 (located_agrees RV_ex_p RV_ex_e _ v W S C)).
Qed.

Check (rules_sound : C08_rules_sound).
Check (consolidate_sound : C08_consolidate_sound).
Check (step_sound_closed : C08_step_sound).
Check (fully_reduce_sound_closed : C08_fully_reduce_sound).
Check (nfr_sound_closed : C08_nfr_sound).
Check (normalize_sound_closed : C08_normalize_sound).
Check (as_expression_sound : C05_as_expression_sound).
Check (early_same_kind : C07_early).
Check (early_agrees : C06_early).
Check (located_agrees : C06_located).
Print Assumptions rules_sound.
Print Assumptions consolidate_sound.
Print Assumptions step_sound_closed.
Print Assumptions fully_reduce_sound_closed.
Print Assumptions nfr_sound_closed.
Print Assumptions normalize_sound_closed.
Print Assumptions as_expression_sound.
Print Assumptions early_same_kind.
Print Assumptions early_agrees.
Print Assumptions located_agrees.
