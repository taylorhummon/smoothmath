(** No answer depends on the two orders Python leaves open (the iteration order of the
    variable-name set, the keyword order of a Point: C18), and symbolic partials only mention
    variables of the differentiated expression (C14; for the reverse symbolic route
    [vars_of_synth_rev], which Spec.v does not state).  Everything is proved for any
    [N : NumOps T], axiom-free, and instantiated at [RInst]. *)
From Coq Require Import ZArith List Bool Permutation Lia Setoid Rdefinitions.
From SM Require Import Num Syntax Outcome MathFun Eval Forward Reverse Synth Routes RInst Spec.
From SM.proofs Require Import SyntaxFacts.
Import ListNotations.
Local Close Scope R_scope.

(** ** Extensionality in the point: eval, fwd, rev use the point only through [lookup] *)

(* both sides run the same first computation: go on with its result *)
Ltac ext_step :=
  match goal with
  | |- bind ?o _ = bind ?o _ => destruct o; cbn [bind]; try reflexivity
  | |- (if ?b then _ else _) = (if ?b then _ else _) => destruct b; try reflexivity
  end.

Section PointExt.
  Context {T : Type} (N : NumOps T).
  Variables p p' : point T.
  Hypothesis Hlk : forall x, lookup x p = lookup x p'.

  Lemma eval_ext : forall e, eval N p e = eval N p' e.
  Proof.
    induction e as [c|x|l IH|l IH|a b IHa IHb|a b IHa IHb|a b IHa IHb|e He IH]
      using expr_ind_unary; cbn [eval].
    - reflexivity.
    - unfold coordinate. rewrite Hlk. reflexivity.
    - rewrite (map_ext_Forall _ _ IH). reflexivity.
    - rewrite (map_ext_Forall _ _ IH). reflexivity.
    - rewrite IHa, IHb. reflexivity.
    - rewrite IHa, IHb. reflexivity.
    - rewrite IHa, IHb. reflexivity.
    - rewrite !(eval_unary N _ e He), IH. reflexivity.
  Qed.

  (* The partial formulas read the point through [eval] on subtrees that are fixed: after
     [rewrite !eval_ext] both sides are the same text. *)
  Lemma unary_formula_ext e m : unary_formula N p e m = unary_formula N p' e m.
  Proof. destruct e; cbn [unary_formula]; rewrite ?eval_ext; reflexivity. Qed.

  Lemma fwd_ext v : forall e, fwd N v p e = fwd N v p' e.
  Proof.
    induction e as [c|x|l IH|l IH|a b IHa IHb|a b IHa IHb|a b IHa IHb|e He IH]
      using expr_ind_unary; cbn [fwd].
    - reflexivity.
    - reflexivity.
    - rewrite (map_ext_Forall _ _ IH). reflexivity.
    - unfold eval_list. rewrite (map_ext _ _ eval_ext), (map_ext_Forall _ _ IH). reflexivity.
    - rewrite IHa, IHb. reflexivity.
    - unfold divide_formula_left, divide_formula_right. rewrite !eval_ext, IHa, IHb. reflexivity.
    - unfold power_formula_left, power_formula_right, power_shortcut.
      rewrite !eval_ext, IHa, IHb. reflexivity.
    - rewrite !(fwd_unary N v _ e He), eval_ext, IH. repeat ext_step. apply unary_formula_ext.
  Qed.

  Lemma rev_each_ext mult (l : list (expr T)) :
    Forall (fun e => forall m acc, rev N p e m acc = rev N p' e m acc) l ->
    forall i acc, rev_each N p mult i l acc = rev_each N p' mult i l acc.
  Proof.
    induction 1 as [|x r Hx Hr IH]; intros i acc; cbn [rev_each]; [reflexivity|].
    rewrite Hx. ext_step. apply IH.
  Qed.

  Lemma rev_ext : forall e m acc, rev N p e m acc = rev N p' e m acc.
  Proof.
    induction e as [c|x|l IH|l IH|a b IHa IHb|a b IHa IHb|a b IHa IHb|e He IH]
      using expr_ind_unary; intros m acc.
    - reflexivity.
    - reflexivity.
    - rewrite !rev_Add. apply rev_each_ext, IH.
    - rewrite !rev_Mul. unfold eval_list. rewrite (map_ext _ _ eval_ext).
      ext_step. apply rev_each_ext, IH.
    - cbn [rev]. rewrite IHa. ext_step. apply IHb.
    - cbn [rev]. unfold divide_formula_left, divide_formula_right. rewrite !eval_ext.
      repeat ext_step. rewrite IHa. ext_step. apply IHb.
    - cbn [rev]. unfold power_formula_left, power_formula_right, power_shortcut. rewrite !eval_ext.
      repeat ext_step. rewrite IHa. ext_step. apply IHb.
    - rewrite !(rev_unary N _ e _ _ He), eval_ext, unary_formula_ext. repeat ext_step. apply IH.
  Qed.
End PointExt.

Section Generic.
  Context {T : Type} (N : NumOps T).

  Theorem point_perm_gen (p p' : point T) (e : expr T) (v : name) :
    NoDup (map fst p) -> Permutation p p' ->
    eval N p e = eval N p' e /\ fwd N v p e = fwd N v p' e /\
    (forall m acc, rev N p e m acc = rev N p' e m acc).
  Proof.
    intros ND HP. pose proof (lookup_perm p p' ND HP) as Hlk.
    exact (conj (eval_ext N p p' Hlk e) (conj (fwd_ext N p p' Hlk v e) (rev_ext N p p' Hlk e))).
  Qed.

  Theorem enum_indep_gen (p : point T) (e : expr T) (enum enum' : list name) (v : name) :
    Permutation enum enum' ->
    component_of N (located_differential N e enum p) v =
    component_of N (located_differential N e enum' p) v.
  Proof.
    intro HP. unfold component_of, located_differential, numeric_partials.
    destruct (rev N p e (n1 N) []) as [acc| | |k]; cbn [bind]; try reflexivity.
    unfold located_component, numeric_partials_for.
    rewrite (lookup_tabulate_perm (acc_get N acc) v enum enum' HP). reflexivity.
  Qed.

  Theorem synth_enum_indep_gen (e : expr T) (enum enum' : list name) (v : name) :
    Permutation enum enum' ->
    slookup v (synthetic_partials N e enum) = slookup v (synthetic_partials N e enum').
  Proof.
    intro HP. unfold synthetic_partials, synthetic_partials_for. rewrite !slookup_lookup.
    apply lookup_tabulate_perm, HP.
  Qed.
End Generic.

Lemma perm_short {A} (l l' : list A) :
  Permutation l l' -> (length l <= 1)%nat -> l = l'.
Proof.
  intros HP Hlen. destruct l as [|a [|b r]].
  - symmetry. apply Permutation_nil, HP.
  - symmetry. apply Permutation_length_1_inv, HP.
  - cbn [length] in Hlen. lia.
Qed.

(* [incl] of a concatenation of a few lists in another: piece by piece, each piece being one
   of the lists on the right or below one of them by a hypothesis *)
Ltac incl_piece :=
  first [ assumption | apply incl_nil_l | apply incl_refl
        | apply incl_appl; incl_piece | apply incl_appr; incl_piece
        | eapply incl_tran; [eassumption|]; incl_piece ].
Ltac solve_incl :=
  cbn [vars flat_map] in *;
  repeat match goal with
         | H : incl (_ ++ _) _ |- _ => apply incl_app_inv in H; destruct H
         end;
  repeat apply incl_app; incl_piece.

Section VarsGen.
  Context {T : Type} (N : NumOps T).
  Implicit Types (e m : expr T) (l : list (expr T)) (V : list name) (acc : @saccum T).

  Lemma incl_flat_map_remove_nth : forall (i : nat) l,
    incl (flat_map vars (remove_nth i l)) (flat_map vars l).
  Proof.
    induction i as [|i IH]; intros [|a l]; cbn [remove_nth flat_map].
    - apply incl_refl.
    - apply incl_appr, incl_refl.
    - apply incl_refl.
    - apply incl_app_app; [apply incl_refl | apply IH].
  Qed.

  (* the multiplier of operand [i] of a product *)
  Lemma vars_mul_without V m l (i : nat) :
    incl (vars m) V -> incl (flat_map vars l) V -> incl (vars (Mul (m :: remove_nth i l))) V.
  Proof.
    intros Hm Hl. apply (incl_app (l := vars m)); [exact Hm|].
    eapply incl_tran; [apply incl_flat_map_remove_nth | exact Hl].
  Qed.

  Lemma vars_mapi_mul V l ds :
    incl (flat_map vars l) V -> Forall (fun d => incl (vars d) V) ds ->
    forall i : nat, incl (flat_map vars (mapi_from i (fun i d => Mul (d :: remove_nth i l)) ds)) V.
  Proof.
    intros Hl. induction 1 as [|d ds Hd _ IH]; intros i; cbn [mapi_from flat_map].
    - apply incl_nil_l.
    - apply incl_app; [apply vars_mul_without; assumption | apply IH].
  Qed.

  Lemma synth_unary_formula_vars e m :
    incl (vars (synth_unary_formula N e m)) (vars e ++ vars m).
  Proof.
    destruct e as [| | | | | | | | | | |a n|a n|a base|a base];
      cbn [synth_unary_formula]; try solve_incl.
    - destruct n; solve_incl.
    - destruct n; solve_incl.
    - destruct (neqb N base (n1 N)); [solve_incl|].
      destruct (neqb N base (n_e N)); solve_incl.
    - destruct (neqb N base (n_e N)); solve_incl.
  Qed.

  Lemma synth_fwd_vars (v : name) : forall e : expr T, incl (vars (synth_fwd N v e)) (vars e).
  Proof.
    induction e as [c|x|l IH|l IH|a b IHa IHb|a b IHa IHb|a b IHa IHb|e He IH]
      using expr_ind_unary; cbn [synth_fwd].
    5-7: unfold synth_divide_left, synth_divide_right, synth_power_left, synth_power_right;
      solve_incl.
    - apply incl_nil_l.
    - destruct (name_eqb x v); apply incl_nil_l.
    - change (incl (flat_map vars (map (synth_fwd N v) l)) (flat_map vars l)).
      induction IH as [|x r Hx Hr IHr]; cbn [map flat_map].
      + apply incl_refl.
      + apply incl_app; [apply incl_appl, Hx|apply incl_appr, IHr].
    - apply (vars_mapi_mul (flat_map vars l) l); [apply incl_refl|].
      apply Forall_forall. intros d Hd. apply in_map_iff in Hd. destruct Hd as [x [<- Hx]].
      eapply incl_tran; [exact (proj1 (Forall_forall _ l) IH x Hx)|].
      intros y Hy. apply in_flat_map. exists x. split; assumption.
    - rewrite (synth_fwd_unary N v e). eapply incl_tran; [apply synth_unary_formula_vars|].
      rewrite (vars_unary e) in *. apply incl_app; [apply incl_refl | exact IH].
  Qed.

  (** *** The reverse symbolic route: every accumulator entry stays within [V] *)
  Definition acc_within V acc : Prop := Forall (fun xs => incl (vars (snd xs)) V) acc.

  Lemma slookup_within V acc x s : acc_within V acc -> slookup x acc = Some s -> incl (vars s) V.
  Proof.
    intros HF H. rewrite slookup_lookup in H. apply lookup_some_in in H.
    exact (proj1 (Forall_forall _ _) HF _ H).
  Qed.

  Lemma sacc_set_within V acc x s :
    acc_within V acc -> incl (vars s) V -> acc_within V (sacc_set acc x s).
  Proof.
    intros HF Hs. induction HF as [|[y w] r Hw Hr IH]; cbn [sacc_set].
    - constructor; [exact Hs|constructor].
    - destruct (name_eqb x y); constructor; assumption.
  Qed.

  Lemma sacc_add_within V acc x m :
    acc_within V acc -> incl (vars m) V -> acc_within V (sacc_add acc x m).
  Proof.
    intros HF Hm. unfold sacc_add.
    destruct (slookup x acc) as [ex|] eqn:E; apply sacc_set_within; try assumption.
    pose proof (slookup_within V acc x ex HF E) as Hex. solve_incl.
  Qed.

  Definition rev_within V e : Prop :=
    forall m acc, incl (vars e) V -> incl (vars m) V -> acc_within V acc ->
                  acc_within V (synth_rev N e m acc).

  Lemma synth_rev_seq_within V ms l :
    (forall i, incl (vars (ms i)) V) -> Forall (rev_within V) l -> incl (flat_map vars l) V ->
    forall i acc, acc_within V acc -> acc_within V (synth_rev_seq N ms i l acc).
  Proof.
    intros Hms. induction 1 as [|x r Hx _ IH]; cbn [flat_map synth_rev_seq]; intros Hl i acc Hacc;
      [exact Hacc|].
    apply incl_app_inv in Hl. destruct Hl as [Hlx Hlr].
    apply IH; [exact Hlr|]. apply Hx; [exact Hlx | apply Hms | exact Hacc].
  Qed.

  Lemma synth_rev_within V : forall e, rev_within V e.
  Proof.
    induction e as [c|x|l IH|l IH|a b IHa IHb|a b IHa IHb|a b IHa IHb|e He IH]
      using expr_ind_unary; intros m acc Hv Hm Hacc.
    5-7: cbn [synth_rev];
      unfold synth_divide_left, synth_divide_right, synth_power_left, synth_power_right;
      apply IHb; [solve_incl | solve_incl |]; apply IHa; [solve_incl | solve_incl | exact Hacc].
    - exact Hacc.
    - apply sacc_add_within; assumption.
    - rewrite synth_rev_Add. apply synth_rev_seq_within; [intros _; exact Hm | exact IH | exact Hv | exact Hacc].
    - rewrite synth_rev_Mul.
      apply synth_rev_seq_within; [intro i; apply vars_mul_without | ..]; assumption.
    - rewrite (synth_rev_unary N e m acc).
      apply IH; [rewrite <- (vars_unary e); exact Hv| |exact Hacc].
      eapply incl_tran; [apply synth_unary_formula_vars|]. apply incl_app; assumption.
  Qed.

  Theorem vars_of_synth_rev_gen (e : expr T) (enum : list name) (v : name) (s : expr T) :
    slookup v (synthetic_partials N e enum) = Some s -> incl (vars s) (vars e).
  Proof.
    unfold synthetic_partials. intro H.
    eapply slookup_within; [|exact H]. unfold synthetic_partials_for.
    assert (Hr : acc_within (vars e) (synth_rev N e (Const (n1 N)) [])).
    { apply synth_rev_within; [apply incl_refl|apply incl_nil_l|constructor]. }
    apply Forall_map, Forall_forall. intros x _.
    cbn [snd]. destruct (slookup x _) as [w|] eqn:E.
    - exact (slookup_within _ _ _ _ Hr E).
    - apply incl_nil_l.
  Qed.
End VarsGen.

Theorem enum_indep : C18_enum_indep.
Proof. exact (enum_indep_gen RInst). Qed.

Theorem point_perm : C18_point_perm.
Proof. exact (point_perm_gen RInst). Qed.

Theorem synth_enum_indep : C18_synth_enum_indep.
Proof. exact (synth_enum_indep_gen RInst). Qed.

Theorem single_name : C18_single_name.
Proof. intros e l. apply perm_short. Qed.

Theorem vars_of_results : C14_vars_of_results.
Proof. intros e v. apply synth_fwd_vars. Qed.

Theorem vars_of_synth_rev : forall (e : expr R) (enum : list name) (v : name) (s : expr R),
  slookup v (synthetic_partials RInst e enum) = Some s -> incl (vars s) (vars e).
Proof. exact (vars_of_synth_rev_gen RInst). Qed.

(** ** Non-vacuity: the premises hold of non-trivial data, and the routes produce values there *)

Example enum_indep_nonvacuous :
  Permutation [1; 2]%positive [2; 1]%positive /\
  component_of RInst
    (located_differential RInst (Add [Var 1%positive; Var 2%positive]) [2; 1]%positive [])
    1%positive = Val (0 + 1)%R.
Proof. split; [apply perm_swap|reflexivity]. Qed.

Example point_perm_nonvacuous :
  let p := [(1%positive, 2%R); (2%positive, 3%R)] in
  let p' := [(2%positive, 3%R); (1%positive, 2%R)] in
  NoDup (map fst p) /\ Permutation p p' /\ p <> p' /\
  evalR p (Minus (Var 1%positive) (Var 2%positive)) = Val (2 - 3)%R.
Proof.
  cbv zeta. split; [|split; [|split]].
  - repeat constructor; cbn [In]; intuition discriminate.
  - apply perm_swap.
  - discriminate.
  - reflexivity.
Qed.

Example synth_enum_indep_nonvacuous :
  exists s : expr R,
    slookup 1%positive
      (synthetic_partials RInst (Mul [Var 1%positive; Var 2%positive]) [2; 1]%positive) = Some s
    /\ s <> Const (n0 RInst).
Proof. eexists. split; [reflexivity|discriminate]. Qed.

Example single_name_nonvacuous :
  Permutation [3%positive] (var_names (Sin (Mul [Var 3%positive; Var 3%positive]) : expr R)) /\
  (length [3%positive] <= 1)%nat.
Proof. split; [apply Permutation_refl|apply le_n]. Qed.

Example vars_of_results_nontrivial :
  vars (synth_fwd RInst 1%positive (Mul [Var 1%positive; Var 2%positive])) <> [].
Proof. cbn. discriminate. Qed.

Print Assumptions point_perm_gen.
Print Assumptions enum_indep_gen.
Print Assumptions synth_enum_indep_gen.
Print Assumptions synth_fwd_vars.
Print Assumptions vars_of_synth_rev_gen.
Print Assumptions enum_indep.
Print Assumptions point_perm.
Print Assumptions synth_enum_indep.
Print Assumptions single_name.
Print Assumptions vars_of_results.
Print Assumptions vars_of_synth_rev.
