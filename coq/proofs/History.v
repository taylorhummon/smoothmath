(** The statements of SpecStateful.v (C09): answers do not depend on what the
    evaluation cache (section PartA) or the simplifier's flags (section PartB) hold from earlier
    calls.  The proofs go through the unfolding equations of StatefulFacts.v, one case per kind of
    node, for every number type. *)
From Coq Require Import ZArith List Bool.
From SM Require Import Num Syntax Outcome Eval Rules Driver Stateful SpecStateful StatefulFacts.
From SM.proofs Require Import SyntaxFacts.
Import ListNotations.

Section PartA.
  Context {T : Type} (N : NumOps T).
  Notation SE := (@sexpr T).
  Notation ST := (@store T).

  Lemma in_snodes_child_of (root c x : SE) :
    In c (snodes root) -> In x (schildren c) -> In x (snodes root).
  Proof.
    induction root as [root IH] using sexpr_ind_ch. intros Hc Hx.
    rewrite snodes_unfold in *. right. apply in_flat_map. destruct Hc as [Hc | Hc].
    - subst c. exists x. split; [exact Hx | rewrite snodes_unfold; left; reflexivity].
    - apply in_flat_map in Hc. destruct Hc as [y [Hy Hcy]]. exists y. split; [exact Hy|].
      rewrite Forall_forall in IH. apply IH; assumption.
  Qed.

  (** The reset only ever clears, and it clears the field of every node object it reaches: the
      two disjuncts of the invariant. *)
  Lemma fold_reset_clears (i : oid) (l : list SE) :
    Forall (fun e => forall s : ST, sget s i = None \/ In (Some i) (map oid_of (snodes e)) ->
                                    sget (reset_s s e) i = None) l ->
    forall s : ST, sget s i = None \/ In (Some i) (map oid_of (flat_map snodes l)) ->
                   sget (fold_left reset_s l s) i = None.
  Proof.
    induction 1 as [|x r Hx _ IH]; intros s H; cbn [fold_left flat_map] in *.
    - destruct H as [H | []]. exact H.
    - apply IH. rewrite map_app, in_app_iff in H. destruct H as [H | [H | H]]; auto.
  Qed.

  Lemma reset_clears (i : oid) (e : SE) :
    forall s : ST, sget s i = None \/ In (Some i) (map oid_of (snodes e)) ->
                   sget (reset_s s e) i = None.
  Proof.
    induction e as [e IH] using sexpr_ind_ch. intros s H.
    rewrite reset_s_unfold. apply fold_reset_clears; [exact IH|].
    rewrite snodes_unfold in H. destruct H as [H | [H | H]]; [left | left | right; exact H].
    - destruct (oid_of e) as [j|]; [|exact H]. rewrite sget_sclear, H. destruct (Pos.eqb i j); reflexivity.
    - rewrite H, sget_sclear, Pos.eqb_refl. reflexivity.
  Qed.

  Section Refines.
    Variables (root : SE) (p : point T).
    Hypothesis Hwf : wf_ids root.

    Let cached_ok {A} (r : ST * outcome A) (o : outcome A) : Prop :=
      snd r = o /\ consistent N (fst r) p root.

    Lemma sbind_ok {A B} (m : ST * outcome A) (o : outcome A)
          (f : ST -> A -> ST * outcome B) (g : A -> outcome B) :
      cached_ok m o ->
      (forall s a, o = Val a -> consistent N s p root -> cached_ok (f s a) (g a)) ->
      cached_ok (sbind m f) (bind o g).
    Proof.
      destruct m as [s [a| | |k]]; intros [<- Hs] Hf; [apply Hf; auto | split; auto ..].
    Qed.

    Let eval_refined (c : SE) : Prop :=
      forall s : ST, In c (snodes root) -> consistent N s p root ->
        cached_ok (eval_s N s p c) (eval N p (erase c)).

    Lemma eval_list_ok (l : list SE) :
      Forall eval_refined l ->
      forall s : ST, (forall x, In x l -> In x (snodes root)) -> consistent N s p root ->
        cached_ok (eval_list_s N p s l) (sequence (map (fun x => eval N p (erase x)) l)).
    Proof.
      induction 1 as [|x r Hx _ IH]; intros s Hin Hc; cbn [eval_list_s map sequence].
      - split; auto.
      - apply sbind_ok; [apply Hx; auto; apply Hin; left; reflexivity|]. intros s1 v _ Hs1.
        apply sbind_ok; [apply IH; auto; intros y Hy; apply Hin; right; exact Hy|].
        intros s2 vs _ Hs2. split; auto.
    Qed.

    Lemma eval_s_ok (c : SE) : eval_refined c.
    Proof.
      induction c as [c IH] using sexpr_ind_ch. intros s Hc Hs.
      rewrite eval_s_unfold. destruct (oid_of c) as [i|] eqn:Hi; [|split; auto].
      destruct (sget s i) as [v|] eqn:G.
      { split; auto. symmetry. eapply Hs; eauto. }
      rewrite (eval_erase_unfold N p c i Hi).
      apply sbind_ok; [apply eval_list_ok; auto; intros x Hx; eapply in_snodes_child_of; eauto|].
      intros s1 vs Hvs Hs1.
      destruct (node_value N c vs) as [v| | |k] eqn:NV; split; auto.
      (* the new entry: by [wf_ids] only [c] itself has the identity [i] *)
      intros n j w Hn Hj Hg. cbn [sbind fst] in Hg. rewrite sget_sset in Hg.
      destruct (Pos.eqb j i) eqn:Eji.
      + apply Pos.eqb_eq in Eji. subst j. injection Hg as <-.
        assert (n = c) by (eapply Hwf; eauto). subst n.
        rewrite (eval_erase_unfold N p c i Hi), Hvs. exact NV.
      + eapply Hs1; eauto.
    Qed.
  End Refines.
End PartA.

Theorem reset_clean : C09_reset_clean.
Proof.
  intros T root n i s Hn Hi. apply reset_clears. right. rewrite <- Hi. apply in_map, Hn.
Qed.

Theorem eval_s_refines : C09_eval_s_refines.
Proof.
  intros T N root c p s Hwf. apply (eval_s_ok N root p Hwf).
Qed.

Section HistoryA.
  Context {T : Type} (N : NumOps T).

  Lemma reset_consistent (s : @store T) (p : point T) (root : @sexpr T) :
    consistent N (reset_s s root) p root.
  Proof.
    intros n i v Hn Hi Hg. rewrite (reset_clean T root n i s Hn Hi) in Hg. discriminate.
  Qed.

  Lemma run_calls_ok (root : @sexpr T) (p : point T) :
    wf_ids root ->
    forall (calls : list (@sexpr T)) (s : @store T),
      (forall x, In x calls -> In x (snodes root)) -> consistent N s p root ->
      snd (run_calls N s p calls) = map (fun x => eval N p (erase x)) calls.
  Proof.
    intros Hwf. induction calls as [|c r IH]; intros s Hin Hs; simpl; auto.
    destruct (eval_s_refines T N root c p s Hwf) as [H1 H2]; auto.
    { apply Hin. left. reflexivity. }
    destruct (eval_s N s p c) as [s1 o]. simpl in H1, H2.
    specialize (IH s1). destruct (run_calls N s1 p r) as [s2 os]. simpl in *.
    rewrite H1, IH; auto.
  Qed.

  Lemma run_call_ok (s : @store T) (c : @call T) :
    call_ok c -> snd (run_call N s c) = pure_call N c.
  Proof.
    intros [Hwf Hin]. unfold run_call, pure_call.
    apply run_calls_ok with (root := c_root c); auto. apply reset_consistent.
  Qed.
End HistoryA.

Theorem history_independent : C09_history_independent.
Proof.
  unfold C09_history_independent. intros T N h. induction h as [|c r IH]; intros s0 Hok; simpl; auto.
  inversion Hok as [|c' r' Hc Hr]; subst.
  pose proof (run_call_ok N s0 c Hc) as H1.
  destruct (run_call N s0 c) as [s1 o]. simpl in H1.
  specialize (IH s1 Hr). destruct (run_history N s1 r) as [s2 os]. simpl in *.
  rewrite H1, IH. reflexivity.
Qed.

(* Z as a number type, for the counterexample and the non-vacuity examples below.  Any instance
   would do: 3 for [n_e] and the first argument for powers, roots, logarithm, sine and cosine are
   placeholders that the examples do not reach. *)
Definition ZOps : NumOps Z :=
  mkNumOps Z (fun z => z) (fun x => x) 3%Z (fun l => fold_right Z.add 0%Z l)
    Z.add Z.sub Z.mul Z.div Z.opp (fun x _ => x) (fun x _ => x) (fun x => x) (fun x => x)
    (fun x => x) (fun x => x) (fun x => x) Z.eqb Z.ltb (fun x => Some x) (fun _ => true).

Theorem no_reset_refuted : C09_no_reset_refuted.
Proof.
  unfold C09_no_reset_refuted.
  exists (SNeg 1%positive (SVar 2%positive)), [(2%positive, 5%Z)], [(2%positive, 7%Z)], ZOps.
  vm_compute. discriminate.
Qed.

Section PartB.
  Context {T : Type} (N : NumOps T).
  Notation E := (expr T).
  Notation FL := (@flags T).
  Variable E_eqb : E -> E -> bool.
  (* In Python the flags are attributes of the node objects; the model keys a table by the tree, and
     only soundness of the key comparison is needed. *)
  Hypothesis E_eqb_spec : forall a b, E_eqb a b = true -> a = b.

  (* [step_named_unfold] without the labels *)
  Lemma step_unfold (e : E) :
    step N e =
    match consolidate N e with
    | Some c => Some c
    | None =>
        match step_list N (echildren e) with
        | Some (_, l') => Some (erebuild e l')
        | None => match apply_reducers N e with Some (_, e') => Some e' | None => None end
        end
    end.
  Proof.
    unfold step. rewrite step_named_unfold. destruct (consolidate N e); [reflexivity|].
    destruct (step_list N (echildren e)) as [[lab l']|]; [reflexivity|].
    unfold rules_at. destruct (apply_reducers N e) as [[nm e']|]; reflexivity.
  Qed.

  Lemma mark_reduced_truthful (f : FL) (e : E) :
    truthful N f -> step N e = None -> truthful N (mark_reduced E_eqb f e).
  Proof.
    intros [H1 H2] He. split; [|exact H2].
    intros x [->%E_eqb_spec | Hx]%orb_true_iff; auto.
  Qed.

  Lemma mark_failed_truthful (f : FL) (e : E) :
    truthful N f -> var_free e = true -> (forall v, eval N [] e <> Val v) ->
    truthful N (mark_failed E_eqb f e).
  Proof.
    intros [H1 H2] Hvf He. split; [exact H1|].
    intros x [->%E_eqb_spec | Hx]%orb_true_iff; auto.
  Qed.

  Lemma consolidate_f_spec (f f1 : FL) (e : E) (o : option E) :
    truthful N f -> consolidate_f N E_eqb f e = (f1, o) ->
    truthful N f1 /\ o = consolidate N e.
  Proof.
    intros Ht H. unfold consolidate_f in H. unfold consolidate.
    rewrite match_Const in H. rewrite match_Const.
    destruct (var_free e) eqn:VF; [|inversion H; subst; auto].
    destruct (is_Const e); [inversion H; subst; auto|].
    destruct (failed f e) eqn:Fe.
    - inversion H; subst. split; auto.
      destruct Ht as [_ Ht2]. destruct (Ht2 e Fe) as [_ Hne].
      destruct (eval N [] e) as [v| | |k] eqn:Ev; auto. exfalso. apply (Hne v). reflexivity.
    - destruct (eval N [] e) as [v| | |k] eqn:Ev; inversion H; subst; split; auto.
      apply mark_failed_truthful; auto. intros v. rewrite Ev. discriminate.
  Qed.

  (* [e' = e]: a marking step, or a node that is already flagged *)
  Let step_truthful (e : E) : Prop :=
    forall (f f' : FL) (e' : E),
      truthful N f -> take_step_f N E_eqb f e = (f', e') ->
      truthful N f' /\ (e' = e \/ step N e = Some e').

  Lemma step_list_f_ok (f1 : FL) (l : list E) :
    Forall step_truthful l -> truthful N f1 ->
    match step_list_f N E_eqb f1 l with
    | Some (f2, l') => truthful N f2 /\ (l' = l \/ exists lab, step_list N l = Some (lab, l'))
    | None => step_list N l = None
    end.
  Proof.
    intros HF Ht. induction HF as [|x r Hx Hr IH]; cbn [step_list_f step_list]; auto.
    destruct (reduced f1 x) eqn:Rx.
    - assert (Sx : step N x = None) by (apply Ht; exact Rx). unfold step in Sx.
      destruct (step_named N x) as [[lab x']|]; [discriminate Sx|].
      destruct (step_list_f N E_eqb f1 r) as [[f2 r']|].
      + destruct IH as [I1 [I2 | [lab I2]]]; split; auto.
        * left. congruence.
        * right. exists lab. rewrite I2. reflexivity.
      + rewrite IH. reflexivity.
    - destruct (take_step_f N E_eqb f1 x) as [f2 x'] eqn:TS.
      destruct (Hx f1 f2 x' Ht TS) as [H1 [H2 | H2]]; split; auto.
      + left. congruence.
      + right. unfold step in H2. destruct (step_named N x) as [[lab x'']|]; [|discriminate H2].
        exists lab. congruence.
  Qed.

  Lemma take_step_f_ok (e : E) : step_truthful e.
  Proof.
    induction e as [e IH] using expr_ind_ch. intros f f' e' Ht H.
    rewrite take_step_f_unfold in H.
    destruct (reduced f e) eqn:Re.
    { inversion H; subst. auto. }
    destruct (consolidate_f N E_eqb f e) as [f1 o] eqn:CF.
    destruct (consolidate_f_spec f f1 e o Ht CF) as [Ht1 Ho].
    pose proof (step_unfold e) as Hs. rewrite <- Ho in Hs.
    destruct o as [c|].
    { inversion H; subst. auto. }
    pose proof (step_list_f_ok f1 (echildren e) IH Ht1) as SL.
    destruct (step_list_f N E_eqb f1 (echildren e)) as [[f2 l']|].
    { inversion H; subst. destruct SL as [S1 [S2 | [lab S2]]]; split; auto.
      - left. rewrite S2. apply erebuild_same.
      - right. rewrite S2 in Hs. exact Hs. }
    rewrite SL in Hs.
    destruct (apply_reducers N e) as [[nm e'']|].
    { inversion H; subst. auto. }
    (* the marking step: nothing applies to [e], so its new flag tells the truth *)
    inversion H; subst. split; auto. apply mark_reduced_truthful; assumption.
  Qed.

  Lemma fully_reduce_f_ok (budget : nat) :
    forall (f f' : FL) (e e' : E),
      truthful N f -> fully_reduce_f N E_eqb budget f e = (f', e') ->
      truthful N f' /\ exists k, iter_step_g N k e = Some e'.
  Proof.
    induction budget as [|b IH]; intros f f' e e' Ht H; simpl in H.
    - inversion H; subst. split; auto. exists 0. reflexivity.
    - destruct (reduced f e).
      + inversion H; subst. split; auto. exists 0. reflexivity.
      + destruct (take_step_f N E_eqb f e) as [f1 e1] eqn:TS.
        destruct (take_step_f_ok e f f1 e1 Ht TS) as [Ht1 Hs].
        destruct (IH f1 f' e1 e' Ht1 H) as [Ht' [k Hk]]. split; auto.
        destruct Hs as [Hs | Hs].
        * subst e1. exists k. exact Hk.
        * exists (S k). simpl. rewrite Hs. exact Hk.
  Qed.

  Lemma iter_step_g_det (a : nat) :
    forall (b : nat) (e x y : E),
      iter_step_g N a e = Some x -> step N x = None ->
      iter_step_g N b e = Some y -> step N y = None -> x = y.
  Proof.
    induction a as [|a IH]; intros b e x y Hx Sx Hy Sy; simpl in Hx.
    - inversion Hx; subst. destruct b as [|b]; simpl in Hy.
      + inversion Hy; subst. reflexivity.
      + rewrite Sx in Hy. discriminate.
    - destruct (step N e) as [e1|] eqn:Se; [|discriminate].
      destruct b as [|b]; simpl in Hy.
      + inversion Hy; subst. rewrite Sy in Se. discriminate.
      + rewrite Se in Hy. eapply IH; eauto.
  Qed.
End PartB.

Theorem flags_step : C09_flags_step.
Proof.
  intros T N E_eqb Hspec f f' e. apply take_step_f_ok, Hspec.
Qed.

Theorem flags_fully_reduce : C09_flags_fully_reduce.
Proof.
  intros T N E_eqb Hspec. apply fully_reduce_f_ok, Hspec.
Qed.

Theorem flags_history_independent : C09_flags_history_independent.
Proof.
  intros T N E_eqb Hspec b1 b2 f1 f2 f1' f2' e e1 e2 Ht1 Ht2 H1 R1 H2 R2.
  destruct (flags_fully_reduce T N E_eqb Hspec b1 f1 f1' e e1 Ht1 H1) as [Ht1' [k1 Hk1]].
  destruct (flags_fully_reduce T N E_eqb Hspec b2 f2 f2' e e2 Ht2 H2) as [Ht2' [k2 Hk2]].
  eapply iter_step_g_det; eauto.
  - apply Ht1'. exact R1.
  - apply Ht2'. exact R2.
Qed.

(* the cache: a DAG that uses the object with oid 2 twice; two API calls at different points,
   starting from a cache that holds a stale value for that very object *)
Example history_nonvacuous :
  let sh := SNeg 2%positive (SVar 3%positive) in
  let root := SAdd 1%positive [sh; sh] in
  let c1 := mkCall root [(3%positive, 5%Z)] [root; sh] in
  let c2 := mkCall root [(3%positive, 7%Z)] [sh; root] in
  Forall call_ok [c1; c2] /\
  snd (run_history ZOps [(2%positive, 100%Z)] [c1; c2]) =
    [[Val (-10)%Z; Val (-5)%Z]; [Val (-7)%Z; Val (-14)%Z]] /\
  map (pure_call ZOps) [c1; c2] = [[Val (-10)%Z; Val (-5)%Z]; [Val (-7)%Z; Val (-14)%Z]].
Proof.
  intros sh root c1 c2.
  assert (Hwf : wf_ids root).
  { intros a b i Ha Hb Hoa Hob. simpl in Ha, Hb.
    repeat match goal with H : _ \/ _ |- _ => destruct H end; try contradiction;
      subst; simpl in *; try congruence; reflexivity. }
  split; [|split; reflexivity].
  apply Forall_cons; [|apply Forall_cons; [|apply Forall_nil]];
    (split; [exact Hwf|]); simpl; intros x Hx;
    (destruct Hx as [Hx|[Hx|[]]]; subst x; simpl; auto).
Qed.

(* the flags: a decidable syntactic equality exists (here at Z), the empty table is truthful, and
   a run of [fully_reduce_f] ends on a flagged form *)
Fixpoint exprZ_eq_dec (a b : expr Z) {struct a} : {a = b} + {a <> b}.
Proof.
  decide equality; try apply Z.eq_dec; try apply Pos.eq_dec;
    apply (list_eq_dec exprZ_eq_dec).
Defined.

Definition exprZ_eqb (a b : expr Z) : bool := if exprZ_eq_dec a b then true else false.

Lemma exprZ_eqb_spec (a b : expr Z) : exprZ_eqb a b = true <-> a = b.
Proof. unfold exprZ_eqb. destruct (exprZ_eq_dec a b); split; auto; discriminate. Qed.

Definition no_flags : @flags Z := mkFlags (fun _ => false) (fun _ => false).

Example flags_nonvacuous :
  (forall a b, exprZ_eqb a b = true <-> a = b) /\
  truthful ZOps no_flags /\
  let r := fully_reduce_f ZOps exprZ_eqb 5 no_flags (Add [Var 2%positive; Neg (Const 3%Z)]) in
  snd r = Add [Var 2%positive; Const (-3)%Z] /\ reduced (fst r) (snd r) = true.
Proof.
  split; [exact exprZ_eqb_spec|]. split.
  - split; intros e H; discriminate.
  - vm_compute. auto.
Qed.

Print Assumptions reset_clean.
Print Assumptions eval_s_refines.
Print Assumptions history_independent.
Print Assumptions no_reset_refuted.
Print Assumptions flags_step.
Print Assumptions flags_fully_reduce.
Print Assumptions flags_history_independent.
