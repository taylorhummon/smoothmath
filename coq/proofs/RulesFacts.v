(** What the helpers of Rules.v do, for every number interface.
    The soundness proofs and the termination proof of the rewrite rules both rest on these. *)
From Coq Require Import List Bool Permutation.
From SM Require Import Num Syntax Rules.
Import ListNotations.

(** [Add] and [Mul] as one node: the rules on sums and on products are alike *)
Definition nary {T} (b : bool) (l : list (expr T)) : expr T := if b then Add l else Mul l.

Lemma first_reducer_in {T} (rs : list (@rule T)) e nm e' :
  first_reducer rs e = Some (nm, e') -> exists f, In (nm, f) rs /\ f e = Some e'.
Proof.
  induction rs as [|[nm0 f] r IH]; cbn [first_reducer]; [discriminate|].
  destruct (f e) as [x|] eqn:Ef.
  - intros [= <- <-]. exists f. split; [left; reflexivity | exact Ef].
  - intros H. destruct (IH H) as (f' & Hin & Hf). exists f'. split; [right; exact Hin | exact Hf].
Qed.

Lemma reducers_of_all {T} (N : NumOps T) e : incl (reducers_of N e) (all_rules N).
Proof.
  destruct e; cbn [reducers_of]; unfold all_rules;
    repeat first [apply incl_nil_l | apply incl_appl, incl_refl | apply incl_appr | apply incl_refl].
Qed.

(** In [grouped], the member that opened a group has its key literally and the others as [keqb]
    sees it, so nothing is asked of [keqb]. *)
Section Groups.
  Context {K V : Type} (keqb : K -> K -> bool) (key : V -> K).

  Definition grouped (g : list (K * list V)) : Prop :=
    Forall (fun kv => snd kv <> [] /\
                      Forall (fun v => key v = fst kv \/ keqb (key v) (fst kv) = true) (snd kv)) g.

  Lemma group_insert_spec v g :
    grouped g ->
    Permutation (flat_map snd (group_insert keqb (key v) v g)) (v :: flat_map snd g) /\
    grouped (group_insert keqb (key v) v g).
  Proof.
    induction 1 as [|[k vs] g [Hne Hk] Hg [IHp IHg]]; cbn [group_insert flat_map snd app].
    - split; [apply Permutation_refl|]. constructor; [|constructor]. split; [discriminate|].
      constructor; [left; reflexivity | constructor].
    - destruct (keqb (key v) k) eqn:E; cbn [flat_map snd]; split.
      + rewrite <- app_assoc. apply Permutation_sym, Permutation_middle.
      + constructor; [|exact Hg]. cbn [fst snd] in *. split.
        * intro Hc. apply app_eq_nil in Hc. destruct Hc; discriminate.
        * apply Forall_app. split; [exact Hk|]. constructor; [right; exact E | constructor].
      + apply (Permutation_trans (Permutation_app_head vs IHp)), Permutation_sym, Permutation_middle.
      + constructor; [split; assumption | exact IHg].
  Qed.

  Lemma group_by_key_spec l :
    Permutation (flat_map snd (group_by_key keqb key l)) l /\ grouped (group_by_key keqb key l).
  Proof.
    unfold group_by_key.
    enough (G : forall g, grouped g ->
              let g' := fold_left (fun g v => group_insert keqb (key v) v g) l g in
              Permutation (flat_map snd g') (flat_map snd g ++ l) /\ grouped g').
    { apply (G []). constructor. }
    induction l as [|v l IH]; intros g Hg; cbn [fold_left].
    - rewrite app_nil_r. split; [apply Permutation_refl | exact Hg].
    - destruct (group_insert_spec v g Hg) as [Ip Ig]. destruct (IH _ Ig) as [Hp Hg']. split; [|exact Hg'].
      apply (Permutation_trans Hp), (Permutation_trans (Permutation_app_tail l Ip)), Permutation_middle.
  Qed.
End Groups.

Lemma filter_shape {T} (p : expr T -> bool) (C : expr T -> expr T) l :
  (forall x, p x = true -> x = C (inner_of x)) -> filter p l = map C (map inner_of (filter p l)).
Proof.
  intro H. induction l as [|x l IH]; [reflexivity|]. cbn [filter].
  destruct (p x) eqn:X; [|exact IH]. cbn [map]. rewrite <- IH, <- (H x X). reflexivity.
Qed.

Lemma is_Neg_shape {T} (x : expr T) : is_Neg x = true -> x = Neg (inner_of x).
Proof. destruct x; intro H; try discriminate H; reflexivity. Qed.

Lemma is_Recip_shape {T} (x : expr T) : is_Recip x = true -> x = Recip (inner_of x).
Proof. destruct x; intro H; try discriminate H; reflexivity. Qed.
