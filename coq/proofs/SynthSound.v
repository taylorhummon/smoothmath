(** C05: the symbolic differentiation routes of Synth.v are sound.  Every local formula of Synth.v,
    applied to an expression [m], denotes the node's local factor times [denote rho m] ([scaled]).
    The forward route applies the formula to the operand's partial, the reverse route to the
    incoming multiplier, so that pushing [e] with [m] adds [denote rho m * denote rho (synth_fwd v e)]
    to the entry of every [v].  That no new variables appear is OrderIndep.v's. *)
From Coq Require Import Reals ZArith List Bool Lra.
From SM Require Import Num Syntax Eval Forward Synth RInst Denote Spec.
From SM.proofs Require Import OrderIndep SyntaxFacts RInstFacts DerivLemmas.
Import ListNotations.
Open Scope R_scope.

Local Notation suf := (synth_unary_formula RInst).
Local Notation sfwd := (synth_fwd RInst).
Local Notation srev := (synth_rev RInst).
Local Notation srev_seq := (synth_rev_seq RInst).

Definition scaled (rho : env) (s m : expr R) (k : R) : Prop :=
  wf_dom rho s /\ denote rho s = k * denote rho m.

(* [Log _ math.e] is well formed *)
Lemma wf_base_e : Rltb 0 (exp 1) = true /\ Reqb (exp 1) 1 = false.
Proof. pose proof exp_1_gt_1. split; [apply Rltb_true | apply Reqb_false]; lra. Qed.

Lemma suf_scaled rho e :
  is_unary e = true -> wf_dom rho e -> forall m, wf_dom rho m -> scaled rho (suf e m) m (dfac rho e).
Proof.
  intros Hu [Hw Hd] m [Hwm Hdm]. destruct wf_base_e as [He0 He1]. unfold scaled, wf_dom.
  destruct e as [| | | | | | |a|a|a|a|a n|a n|a b|a b]; try discriminate Hu;
    unfold dfac; cbn [synth_unary_formula unary_fac inner_of]; cbn [wf InDomain] in Hw, Hd.
  - cbn [wf InDomain denote]. repeat split; try assumption. ring.
  - destruct Hd as [Hda H0]. cbn [wf InDomain denote]. change (Pos.to_nat 2) with 2%nat.
    repeat split; try assumption; [apply pow_nonzero, H0 | unfold Rdiv; ring].
  - cbn [wf InDomain denote fold_right]. repeat split; try assumption. ring.
  - cbn [wf InDomain denote fold_right]. repeat split; try assumption. ring.
  - destruct (Pos.eq_dec n 1) as [->|Hn].
    + change (Pos.to_nat 1 - 1)%nat with 0%nat. cbn [pow]. repeat split; try assumption. ring.
    + rewrite (match_pos_not1 n _ _ Hn). cbn [wf InDomain denote fold_right nofZ RInst].
      rewrite to_nat_pred by exact Hn. repeat split; try assumption. ring.
  - destruct (Pos.eq_dec n 1) as [->|Hn].
    + change (Pos.to_nat 1 - 1)%nat with 0%nat. cbn [pow]. repeat split; try assumption. field.
    + destruct Hd as [Hda Hr].
      assert (H0 : denote rho a <> 0) by (destruct Hr as [?|[? _]]; [contradiction | assumption]).
      rewrite (match_pos_not1 n _ _ Hn). cbn [wf InDomain denote fold_right nofZ RInst].
      rewrite to_nat_pred, Rmult_1_r by exact Hn.
      repeat split; try assumption; [|apply Rmult_comm].
      apply Rmult_integral_contrapositive_currified; [apply IZR_neq; discriminate|].
      apply pow_nonzero, root_nonzero, H0.
  - destruct Hw as [Hb' Hwa]. pose proof (proj1 (Rltb_true 0 b) Hb') as Hb.
    simpl neqb. change (n_e RInst) with (exp 1).
    destruct (Req_EM_T b 1) as [E1|E1]; rbool;
      [|destruct (Req_EM_T b (exp 1)) as [E2|E2]; rbool]; cbn [wf InDomain denote fold_right].
    + rewrite E1, ln_1. repeat split. change (n0 RInst) with 0. ring.
    + repeat split; try assumption. rewrite E2, ln_exp. ring.
    + rewrite ln_exp. repeat split; try assumption. field.
  - destruct Hw as (Hb' & Hb1' & Hwa). destruct Hd as [Hda Hpos].
    pose proof (proj1 (Rltb_true 0 b) Hb') as Hb. pose proof (proj1 (Reqb_false b 1) Hb1') as Hb1.
    assert (Hva : denote rho a <> 0) by lra.
    simpl neqb. change (n_e RInst) with (exp 1).
    destruct (Req_EM_T b (exp 1)) as [E2|E2]; rbool; cbn [wf InDomain denote fold_right].
    + repeat split; try assumption. rewrite E2, ln_exp, Rmult_1_l. apply Rmult_comm.
    + rewrite ln_exp. replace (ln b / 1 * (denote rho a * 1)) with (ln b * denote rho a) by field.
      repeat split; try assumption; [|apply Rmult_comm].
      apply Rmult_integral_contrapositive_currified; [apply ln_neq_0|]; assumption.
Qed.

Lemma sdivide_scaled rho a b : wf_dom rho (Divide a b) -> forall m, wf_dom rho m ->
  scaled rho (synth_divide_left a b m) m (/ denote rho b) /\
  scaled rho (synth_divide_right a b m) m (- (denote rho a / denote rho b ^ 2)).
Proof.
  intros [[Hwa Hwb] (Hda & Hdb & H0)] m [Hwm Hdm].
  unfold scaled, wf_dom, synth_divide_left, synth_divide_right.
  cbn [wf InDomain denote fold_right]. change (Pos.to_nat 2) with 2%nat.
  repeat split; try assumption; try (apply pow_nonzero, H0); [apply Rmult_comm | ring].
Qed.

Lemma spower_scaled rho a b : wf_dom rho (Power a b) -> forall m, wf_dom rho m ->
  scaled rho (synth_power_left RInst a b m) m
    (denote rho b * Rpower (denote rho a) (denote rho b - 1)) /\
  scaled rho (synth_power_right RInst a b m) m
    (ln (denote rho a) * Rpower (denote rho a) (denote rho b)).
Proof.
  intros [[Hwa Hwb] (Hda & Hdb & H0)] m [Hwm Hdm]. destruct wf_base_e as [He0 He1].
  unfold scaled, wf_dom, synth_power_left, synth_power_right.
  cbn [wf InDomain denote fold_right]. change (n_e RInst) with (exp 1). rewrite ln_exp.
  repeat split; try assumption; [change (n1 RInst) with 1; ring | field].
Qed.

Lemma Forall_remove_nth {A} (P : A -> Prop) (l : list A) (i : nat) :
  Forall P l -> Forall P (remove_nth i l).
Proof.
  intro H. revert i. induction H as [|a l Ha Hl IH]; intro i.
  - destruct i; constructor.
  - destruct i as [|j]; cbn [remove_nth]; [exact Hl | constructor; [exact Ha | apply IH]].
Qed.

Lemma map_remove_nth {A B} (f : A -> B) (l : list A) (i : nat) :
  map f (remove_nth i l) = remove_nth i (map f l).
Proof.
  revert i. induction l as [|a l IH]; intro i; [destruct i; reflexivity|].
  destruct i as [|j]; cbn [remove_nth map]; [reflexivity | rewrite IH; reflexivity].
Qed.

Definition sval (rho : env) (acc : @saccum R) (v : name) : R :=
  match slookup v acc with Some s => denote rho s | None => 0 end.

Definition acc_wf_dom (rho : env) (acc : @saccum R) : Prop :=
  forall x s, slookup x acc = Some s -> wf_dom rho s.

Lemma SY_slookup_add (acc : @saccum R) x c y :
  slookup y (sacc_add acc x c) =
  if name_eqb x y
  then Some (match slookup x acc with Some ex => Add [ex; c] | None => c end)
  else slookup y acc.
Proof.
  unfold sacc_add. rewrite !slookup_lookup. destruct (lookup x acc); apply lookup_acc_set.
Qed.

Lemma SY_sacc_add_good rho acc x c :
  acc_wf_dom rho acc -> wf_dom rho c -> acc_wf_dom rho (sacc_add acc x c).
Proof.
  intros Hacc Hc y s. rewrite SY_slookup_add.
  destruct (name_eqb x y); [|apply Hacc].
  intro E. injection E as <-.
  destruct (slookup x acc) as [ex|] eqn:Ex; [|exact Hc].
  apply wf_dom_Add. constructor; [exact (Hacc _ _ Ex) | constructor; [exact Hc | constructor]].
Qed.

Lemma SY_sacc_add_val rho acc x c v :
  sval rho (sacc_add acc x c) v =
  sval rho acc v + (if name_eqb x v then denote rho c else 0).
Proof.
  unfold sval. rewrite SY_slookup_add. destruct (name_eqb x v) eqn:E; [|ring].
  apply name_eqb_eq in E. subst v.
  destruct (slookup x acc); cbn [denote fold_right]; ring.
Qed.

Section Routes.
  Variable rho : env.
  Notation D v e := (denote rho (sfwd v e)).

  Definition routes_sound (e : expr R) : Prop :=
    (forall v, wf_dom rho (sfwd v e) /\ true_partial rho e v (D v e)) /\
    forall m acc, wf_dom rho m -> acc_wf_dom rho acc ->
      acc_wf_dom rho (srev e m acc) /\
      forall v, sval rho (srev e m acc) v = sval rho acc v + denote rho m * D v e.

  Lemma SY_unary e : is_unary e = true -> wf_dom rho e -> routes_sound (inner_of e) -> routes_sound e.
  Proof.
    intros Hu He [IHf IHr].
    assert (Hfw : forall v, scaled rho (sfwd v e) (sfwd v (inner_of e)) (dfac rho e)).
    { intro v. rewrite (synth_fwd_unary RInst v e). apply (suf_scaled rho e Hu He), IHf. }
    split.
    - intro v. destruct (Hfw v) as [G ->]. split; [exact G|].
      apply tp_unary; [exact Hu | apply He | apply IHf].
    - intros m acc Hm Hacc. destruct (suf_scaled rho e Hu He m Hm) as [S1 S2].
      destruct (IHr (suf e m) acc S1 Hacc) as [I1 I2].
      rewrite (synth_rev_unary RInst e m acc). split; [exact I1|].
      intro v. rewrite I2, S2, (proj2 (Hfw v)). ring.
  Qed.

  (* A node with operands [l] whose symbolic partial is the sum of the local formulas [F i]
     applied to the operands' partials, and which pushes operand [i] with [F i] applied to its
     own multiplier; [k i] is the factor of [F i]. *)
  Section Nary.
    Variable F : nat -> expr R -> expr R.
    Variable k : nat -> R.
    Hypothesis HF : forall i m, wf_dom rho m -> scaled rho (F i m) m (k i).

    Lemma mapi_scaled ds : forall i, Forall (wf_dom rho) ds ->
      Forall (wf_dom rho) (mapi_from i F ds) /\
      map (denote rho) (mapi_from i F ds) = mapi_from i (fun i d => k i * d) (map (denote rho) ds).
    Proof.
      induction ds as [|d ds IH]; intros i Hds; cbn [mapi_from map].
      - split; [constructor | reflexivity].
      - inversion Hds as [|? ? Hd Hds']; subst.
        destruct (IH (S i) Hds') as [I1 I2]. destruct (HF i d Hd) as [S1 S2].
        rewrite I2, S2. split; [constructor; assumption | reflexivity].
    Qed.

    Lemma srev_seq_scaled m l : wf_dom rho m -> Forall routes_sound l -> forall i acc, acc_wf_dom rho acc ->
      acc_wf_dom rho (srev_seq (fun i => F i m) i l acc) /\
      forall v, sval rho (srev_seq (fun i => F i m) i l acc) v =
        sval rho acc v
        + denote rho m * fold_right Rplus 0 (mapi_from i (fun i d => k i * d) (map (fun a => D v a) l)).
    Proof.
      intro Hm. induction 1 as [|x r [_ Hx] _ IH]; intros i acc Hacc;
        cbn [synth_rev_seq map mapi_from fold_right].
      - split; [exact Hacc | intro v; ring].
      - destruct (HF i m Hm) as [S1 S2].
        destruct (Hx (F i m) acc S1 Hacc) as [X1 X2]. destruct (IH (S i) _ X1) as [I1 I2].
        split; [exact I1|]. intro v. rewrite I2, X2, S2. ring.
    Qed.

    Lemma SY_nary e l :
      (forall v, sfwd v e = Add (mapi F (map (sfwd v) l))) ->
      (forall m acc, srev e m acc = srev_seq (fun i => F i m) 0 l acc) ->
      (forall v ds, Forall2 (fun a d => true_partial rho a v d) l ds ->
         true_partial rho e v (fold_right Rplus 0 (mapi (fun i d => k i * d) ds))) ->
      Forall routes_sound l -> routes_sound e.
    Proof.
      intros Ef Er Htp Hl.
      assert (Hfw : forall v, wf_dom rho (sfwd v e) /\
                D v e = fold_right Rplus 0 (mapi (fun i d => k i * d) (map (fun a => D v a) l))).
      { intro v. destruct (mapi_scaled (map (sfwd v) l) 0) as [G1 G2].
        - apply Forall_map. eapply Forall_impl; [|exact Hl]. intros a Ha. apply Ha.
        - rewrite Ef, wf_dom_Add, denote_Add_map. unfold mapi. rewrite G2, map_map.
          split; [exact G1 | reflexivity]. }
      split.
      - intro v. destruct (Hfw v) as [G ->]. split; [exact G|]. apply Htp.
        clear Ef Er Htp Hfw G. induction Hl as [|a r Ha _ IH]; constructor; [apply Ha | exact IH].
      - intros m acc Hm Hacc. rewrite Er.
        destruct (srev_seq_scaled m l Hm Hl 0%nat acc Hacc) as [G1 G2].
        split; [exact G1|]. intro v. rewrite G2, (proj2 (Hfw v)). reflexivity.
    Qed.
  End Nary.

  Lemma SY_two e a b (fl fr : expr R -> expr R) ka kb :
    (forall m, wf_dom rho m -> scaled rho (fl m) m ka /\ scaled rho (fr m) m kb) ->
    (forall v, sfwd v e = Add [fl (sfwd v a); fr (sfwd v b)]) ->
    (forall m acc, srev e m acc = srev b (fr m) (srev a (fl m) acc)) ->
    (forall v da db, true_partial rho a v da -> true_partial rho b v db ->
                     true_partial rho e v (ka * da + kb * db)) ->
    routes_sound a -> routes_sound b -> routes_sound e.
  Proof.
    intros Hs Ef Er Htp Ha Hb.
    apply (SY_nary (fun i => match i with O => fl | _ => fr end)
                   (fun i => match i with O => ka | _ => kb end)) with (l := [a; b]).
    - intros [|i] m Hm; apply (Hs m Hm).
    - exact Ef.
    - exact Er.
    - intros v ds H.
      inversion H as [|? da ? ? Ta T1]; inversion T1 as [|? db ? ? Tb T2]; inversion T2; subst.
      cbn [mapi mapi_from fold_right]. rewrite Rplus_0_r. apply Htp; assumption.
    - constructor; [exact Ha | constructor; [exact Hb | constructor]].
  Qed.

  Lemma SY_routes_sound : forall e, wf_dom rho e -> routes_sound e.
  Proof.
    induction e as [c|x|l IHl|l IHl|a b IHa IHb|a b IHa IHb|a b IHa IHb|e Hu IH]
      using expr_ind_unary; intro He.
    - split.
      + intro v. split; [split; exact I | apply tp_const].
      + intros m acc _ Hacc. split; [exact Hacc|]. intro v.
        cbn [synth_rev synth_fwd denote]. change (n0 RInst) with 0. ring.
    - split.
      + intro v. cbn [synth_fwd]. destruct (name_eqb x v) eqn:E; (split; [split; exact I|]).
        * apply name_eqb_eq in E. subst x. apply tp_var_same.
        * apply name_eqb_neq in E. apply tp_var_other, E.
      + intros m acc Hm Hacc. cbn [synth_rev synth_fwd].
        split; [apply SY_sacc_add_good; assumption|]. intro v. rewrite SY_sacc_add_val.
        destruct (name_eqb x v); cbn [denote];
          [change (n1 RInst) with 1 | change (n0 RInst) with 0]; ring.
    - apply wf_dom_Add in He. apply (SY_nary (fun _ d => d) (fun _ => 1)) with (l := l).
      + intros _ m Hm. split; [exact Hm | symmetry; apply Rmult_1_l].
      + intro v. cbn [synth_fwd]. unfold mapi. rewrite mapi_from_id. reflexivity.
      + intros m acc. apply synth_rev_Add.
      + intros v ds H. unfold mapi.
        rewrite (mapi_from_ext _ (fun _ d => d)), mapi_from_id by (intros; apply Rmult_1_l).
        apply tp_add, H.
      + rewrite Forall_forall in *; auto.
    - apply wf_dom_Mul in He.
      apply (SY_nary (fun i d => Mul (d :: remove_nth i l))
                     (fun i => fold_right Rmult 1 (remove_nth i (map (denote rho) l)))) with (l := l).
      + intros i m Hm. split.
        * apply wf_dom_Mul. constructor; [exact Hm | apply Forall_remove_nth, He].
        * rewrite denote_Mul_map. cbn [map fold_right]. rewrite map_remove_nth. apply Rmult_comm.
      + intro v. reflexivity.
      + intros m acc. apply synth_rev_Mul.
      + intros v ds H. unfold mapi.
        rewrite (mapi_from_ext _ (fun i d => fold_right Rmult 1 (d :: remove_nth i (map (denote rho) l))))
          by (intros; apply Rmult_comm).
        apply tp_mul, H.
      + rewrite Forall_forall in *; auto.
    - destruct He as [[Hwa Hwb] [Hda Hdb]].
      destruct (IHa (conj Hwa Hda)) as [Af Ar]. destruct (IHb (conj Hwb Hdb)) as [Bf Br]. split.
      + intro v. destruct (Af v) as [[A1 A2] A3]. destruct (Bf v) as [[B1 B2] B3].
        split; [split; split; assumption | apply tp_minus; assumption].
      + intros m acc Hm Hacc. cbn [synth_rev synth_fwd].
        destruct (Ar m acc Hm Hacc) as [A1 A2]. destruct (Br (Neg m) _ Hm A1) as [B1 B2].
        split; [exact B1|]. intro v. rewrite B2, A2. cbn [denote]. ring.
    - pose proof He as [[Hwa Hwb] (Hda & Hdb & H0)].
      apply (SY_two (Divide a b) a b _ _ _ _ (sdivide_scaled rho a b He)
               (fun _ => eq_refl) (fun _ _ => eq_refl));
        [intros; apply tp_divide; assumption | apply IHa | apply IHb]; split; assumption.
    - pose proof He as [[Hwa Hwb] (Hda & Hdb & H0)].
      apply (SY_two (Power a b) a b _ _ _ _ (spower_scaled rho a b He)
               (fun _ => eq_refl) (fun _ _ => eq_refl));
        [intros; apply tp_power; assumption | apply IHa | apply IHb]; split; assumption.
    - apply (SY_unary e Hu He), IH, (wf_dom_inner rho e He).
  Qed.
End Routes.

Theorem synth_fwd_sound : C05_synth_fwd_sound.
Proof.
  unfold C05_synth_fwd_sound. intros rho e v Hwf Hdom. cbv zeta.
  destruct (proj1 (SY_routes_sound rho e (conj Hwf Hdom)) v) as [[H1 H2] H3].
  split; [|split; [|split]]; try assumption. apply synth_fwd_vars.
Qed.

(* non-vacuity: a tree with a product, a quotient, a root, a power and a logarithm, in its
   domain at x1 = 2, x2 = 3 *)
Example SY_fwd_example :
  let e := Mul [Var 1%positive; Divide (Var 2%positive) (NthRoot (Var 1%positive) 2%positive);
                Power (Var 1%positive) (Var 2%positive);
                Log (Var 2%positive) 10; Exp (Var 1%positive) 2] in
  let rho := fun x : name => if Pos.eqb x 1%positive then 2 else 3 in
  wfR e /\ InDomain rho e.
Proof.
  cbn [wf InDomain denote fold_right]. cbn [Pos.eqb].
  change (nltb RInst) with Rltb. change (neqb RInst) with Reqb.
  change (n0 RInst) with 0. change (n1 RInst) with 1.
  assert (H2 : root 2 2 <> 0) by (apply root_nonzero; lra).
  repeat split; try (apply Rltb_true; lra); try (apply Reqb_false; lra); try lra; try exact H2.
Qed.

Theorem synth_rev_sound : C05_synth_rev_sound.
Proof.
  unfold C05_synth_rev_sound. intros rho e enum v Hwf Hdom Hin.
  set (A := srev e (Const 1) []).
  pose proof (lookup_tabulate_in
                (fun x => match slookup x A with Some w => w | None => Const 0 end) v enum Hin)
    as Es.
  rewrite <- slookup_lookup in Es. eexists. split; [exact Es|].
  destruct (SY_routes_sound rho e (conj Hwf Hdom)) as [Hf Hr]. destruct (Hf v) as [_ Htp].
  destruct (Hr (Const 1) [] (conj I I)) as [Hgood Hval]; [intros x s H; discriminate H|].
  specialize (Hval v). unfold sval in Hval. fold A in Hval, Hgood. cbn [slookup denote] in Hval.
  split; [|split; [apply (vars_of_synth_rev e enum v _ Es)|]];
    destruct (slookup v A) as [w|] eqn:Ew.
  - apply (Hgood _ _ Ew).
  - exact I.
  - split; [apply (Hgood _ _ Ew)|]. eapply tp_ext_value; [exact Htp | rewrite Hval; ring].
  - split; [exact I|]. eapply tp_ext_value; [exact Htp | cbn [denote]; lra].
Qed.

(* non-vacuity of the reverse statement: same tree, both variables enumerated *)
Example SY_rev_example :
  let e := Mul [Var 1%positive; Divide (Var 2%positive) (NthRoot (Var 1%positive) 2%positive);
                Power (Var 1%positive) (Var 2%positive);
                Log (Var 2%positive) 10; Exp (Var 1%positive) 2] in
  let rho := fun x : name => if Pos.eqb x 1%positive then 2 else 3 in
  wfR e /\ InDomain rho e /\ In 2%positive [1%positive; 2%positive].
Proof.
  pose proof SY_fwd_example as [H1 H2]. cbv zeta.
  split; [exact H1 | split; [exact H2 | right; left; reflexivity]].
Qed.

Print Assumptions synth_fwd_sound.
Print Assumptions synth_rev_sound.
