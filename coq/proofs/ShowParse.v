(** __repr__ and reading the printed form back (C13).  [parse_args_] and [parse_at] name the inner
    loops of [Objects.parse]; [reads] is the invariant of the induction on the size of the tree. *)
From Coq Require Import Reals ZArith List Bool String Lia.
From SM Require Import Num Syntax Eval RInst Objects SpecObjects.
From SM.proofs Require Import EqHash.
Import ListNotations.
Open Scope string_scope.
Open Scope list_scope.

Section PS.
  Context {T : Type}.
  Variable read_num : T -> T.
  Notation E := (expr T).
  Notation tok := (token T).
  Notation parse := (parse read_num).
  Notation mn := (map_nums read_num).

  (** the inner fixpoint of [parse], standalone ([f] = fuel of the enclosing call) *)
  Section Args.
    Variable f : nat.
    Fixpoint parse_args_ (g : nat) (ts : list tok) {struct g} : option (list E * list tok) :=
      match g with
      | O => None
      | S g' =>
          match ts with
          | TRP :: r => Some ([], r)
          | TComma :: r =>
              match parse f r with
              | Some (e, r') =>
                  match parse_args_ g' r' with
                  | Some (es, r'') => Some (e :: es, r'')
                  | None => None
                  end
              | None => None
              end
          | _ => None
          end
      end.
  End Args.

  Definition reads (f : nat) (a : E) : Prop :=
    forall rest, parse f (show a ++ rest) = Some (mn a, rest).

  (** What [parse] does once it has read a head [h] and the parenthesis, with the argument loop
      named. *)
  Definition parse_at (f : nat) (h : head) (r : list tok) : option (E * list tok) :=
    match h with
    | HLeafC => match r with TNum c :: TRP :: r' => Some (Const (read_num c), r') | _ => None end
    | HLeafV => match r with TStr x :: TRP :: r' => Some (Var x, r') | _ => None end
    | HNary add =>
        match r with
        | TRP :: r' => Some ((if add then Add [] else Mul []), r')
        | _ =>
            match parse f r with
            | Some (e, r') =>
                match parse_args_ f f r' with
                | Some (es, r'') => Some ((if add then Add (e :: es) else Mul (e :: es)), r'')
                | None => None
                end
            | None => None
            end
        end
    | HBin k =>
        match parse f r with
        | Some (a, TComma :: r') =>
            match parse f r' with
            | Some (b, TRP :: r'') => Some (mk_bin k a b, r'')
            | _ => None
            end
        | _ => None
        end
    | HUn k => match parse f r with Some (a, TRP :: r') => Some (mk_un k a, r') | _ => None end
    | HPos pow =>
        match parse f r with
        | Some (a, TComma :: TName kw :: TEq :: TPos n :: TRP :: r') =>
            if String.eqb kw "n" then Some ((if pow then NthPow a n else NthRoot a n), r') else None
        | _ => None
        end
    | HBase ex =>
        match parse f r with
        | Some (a, TComma :: TName kw :: TEq :: TNum c :: TRP :: r') =>
            if String.eqb kw "base"
            then Some ((if ex then Exp a (read_num c) else Log a (read_num c)), r') else None
        | _ => None
        end
    end.

  Lemma parse_head f s h r :
    head_of s = Some h -> parse (S f) (TName s :: TLP :: r) = parse_at f h r.
  Proof. intro Hs. cbn [parse]. rewrite Hs. destruct h; reflexivity. Qed.

  Lemma show_head (e : E) : exists s t, show e = TName s :: t.
  Proof. destruct e; simpl; eauto. Qed.

  Definition rest_args (r : list E) : list tok := flat_map (fun y => TComma :: show y) r.

  Lemma join_comma_cons (x : E) (r : list E) :
    join_comma (map show (x :: r)) = show x ++ rest_args r.
  Proof.
    revert x; induction r as [|y r IH]; intros x.
    - simpl. rewrite app_nil_r; reflexivity.
    - change (join_comma (map show (x :: y :: r)))
        with (show x ++ TComma :: join_comma (map show (y :: r))).
      rewrite IH. reflexivity.
  Qed.

  Lemma parse_args_show f (r : list E) :
    Forall (reads f) r ->
    forall g rest, (List.length r < g)%nat ->
      parse_args_ f g (rest_args r ++ TRP :: rest) = Some (map mn r, rest).
  Proof.
    induction 1 as [|y r Hy Hr IH]; intros [|g] rest Hg; try (cbn [List.length] in Hg; lia).
    - reflexivity.
    - cbn [rest_args flat_map app parse_args_]. rewrite <- app_assoc, Hy.
      fold (rest_args r). rewrite IH by (cbn [List.length] in Hg; lia). reflexivity.
  Qed.

  Lemma parse_at_nary f add (l : list E) rest :
    Forall (reads f) l -> (List.length l <= f)%nat ->
    parse_at f (HNary add) (join_comma (map show l) ++ TRP :: rest) =
    Some ((if add then Add (map mn l) else Mul (map mn l)), rest).
  Proof.
    intros Hl Hf. destruct l as [|x r]; [reflexivity|].
    inversion Hl as [|? ? Hx Hr]; subst. rewrite join_comma_cons, <- app_assoc.
    (* a printed operand starts with a name, so the argument list is not the empty one *)
    specialize (Hx (rest_args r ++ TRP :: rest)).
    destruct (show_head x) as (s' & t & Ex). rewrite Ex in *. cbn [app parse_at] in *.
    rewrite Hx, (parse_args_show f r Hr) by (cbn [List.length] in Hf; lia).
    destruct add; reflexivity.
  Qed.

  Lemma size_pos (e : E) : (1 <= size e)%nat.
  Proof. destruct e; simpl; lia. Qed.

  Notation sum_sizes := (fold_right (fun (x : E) acc => size x + acc)%nat 0%nat).

  Lemma sum_sizes_length (r : list E) : (List.length r <= sum_sizes r)%nat.
  Proof.
    induction r as [|y r IH]; simpl; [lia|]. pose proof (size_pos y); lia.
  Qed.

  Lemma reads_operands f (l : list E) :
    Forall (fun e => forall f, (size e <= f)%nat -> reads (S f) e) l ->
    (sum_sizes l <= f)%nat -> Forall (reads (S f)) l.
  Proof.
    induction 1 as [|y r Hy _ IH]; cbn [fold_right]; intro Hf; constructor;
      [apply Hy | apply IH]; lia.
  Qed.

  Lemma parse_show_size : forall (e : E) f, (size e <= f)%nat -> reads (S f) e.
  Proof.
    induction e using expr_ind'; intros f Hf; cbn [size] in Hf.
    1,2: intro rest; reflexivity.
    all: destruct f as [|f]; [lia|]; intro rest.
    all: cbn [show app map_nums]; erewrite parse_head by reflexivity; rewrite <- app_assoc.
    1,2: apply parse_at_nary;
      [apply reads_operands; [exact H | lia] | pose proof (sum_sizes_length l); lia].
    all: cbn [parse_at].
    1-3: rewrite IHe1 by lia; cbn [app]; rewrite <- app_assoc, IHe2 by lia; reflexivity.
    all: rewrite IHe by lia; reflexivity.
  Qed.
End PS.

Theorem parse_show : C13_parse_show.
Proof.
  unfold C13_parse_show, parse_fuel; intros T read_num e rest [|f] Hf; [lia|].
  apply parse_show_size; lia.
Qed.

Lemma map_nums_id {T} : forall e : expr T, map_nums (fun x => x) e = e.
Proof.
  induction e using expr_ind'; cbn [map_nums];
    try (apply map_ext_Forall in H; rewrite map_id in H); congruence.
Qed.

(** the printed form determines where it ends: the reader finds the split point *)
Lemma show_app_inj {T} (a b : expr T) (r1 r2 : list (token T)) :
  show a ++ r1 = show b ++ r2 -> a = b /\ r1 = r2.
Proof.
  intros Hab.
  pose (f := Nat.max (size a) (size b)).
  pose proof (parse_show_size (fun x => x) a f (Nat.le_max_l _ _) r1) as Ha.
  pose proof (parse_show_size (fun x => x) b f (Nat.le_max_r _ _) r2) as Hb.
  rewrite Hab, Hb, !map_nums_id in Ha.
  injection Ha as -> ->; auto.
Qed.

Theorem show_injective : C13_show_injective.
Proof.
  unfold C13_show_injective; intros T a b Hab.
  apply (show_app_inj a b [] []). rewrite !app_nil_r; exact Hab.
Qed.

Lemma struct_eq_map_nums {T} (N : NumOps T) (read_num : T -> T) :
  (forall c, neqb N (read_num c) c = true) ->
  forall e : expr T, struct_eq N (map_nums read_num e) e.
Proof.
  intros Hread. induction e using expr_ind'; cbn [map_nums]; constructor;
    auto using Forall2_map_l_in.
Qed.

Theorem roundtrip_eq : C13_roundtrip_eq.
Proof.
  unfold C13_roundtrip_eq; intros T N read_num HN Hread e.
  exists (map_nums read_num e); split.
  - pose proof (parse_show_size read_num e (size e) (le_n _) []) as HH.
    rewrite app_nil_r in HH; exact HH.
  - apply (eqb_structural_gen N HN), struct_eq_map_nums, Hread.
Qed.

Theorem old_printer_refuted : C13_old_printer_refuted.
Proof.
  unfold C13_old_printer_refuted.
  exists (Const 0%R), 1%positive; split; [reflexivity|discriminate].
Qed.

Theorem wrappers_injective : C13_wrappers_injective.
Proof.
  unfold C13_wrappers_injective; intros T a b v w; split; [|split].
  - unfold show_partial; intros HH; injection HH as HH.
    apply show_app_inj in HH; destruct HH as [-> HH].
    injection HH as ->; auto.
  - unfold show_derivative; intros HH; injection HH as HH.
    apply show_app_inj in HH; destruct HH as [-> _]; reflexivity.
  - unfold show_differential; intros HH; injection HH as HH.
    apply show_app_inj in HH; destruct HH as [-> _]; reflexivity.
Qed.

(* non-vacuity: a concrete round trip at R with the identity reader, on a tree using an n-ary
   node with three arguments, an empty n-ary node, a keyword parameter of each kind *)
Example parse_show_ex :
  let e := Add [Var 2%positive; Mul []; NthRoot (Exp (Const 1%R) 2%R) 3%positive;
                Minus (Log (Var 1%positive) 10%R) (NthPow (Neg (Var 1%positive)) 2%positive)] in
  parse (fun x : R => x) (parse_fuel e) (show e) = Some (e, []).
Proof. reflexivity. Qed.

Print Assumptions parse_show.
Print Assumptions roundtrip_eq.
Print Assumptions show_injective.
Print Assumptions old_printer_refuted.
Print Assumptions wrappers_injective.
