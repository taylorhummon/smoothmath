(** Soundness ([refines]) of every rewrite rule of the classes Add, Minus, Negation, Multiply,
    Divide, Reciprocal, Cosine, Sine (part A of C08_rules_sound). *)
From Coq Require Import Reals ZArith List Bool String Permutation Lra.
From SM Require Import Num Syntax MathFun Eval Rules RInst Denote Spec.
From SM.proofs Require Import SyntaxFacts RulesFacts RInstFacts RefinesFacts.
Import ListNotations.
Open Scope R_scope.

Local Notation E := (expr R).

Definition RA_sound (r : rule (T:=R)) : Prop := rule_sound (snd r).

Lemma reduce_minus_to_sum_with_negation_sound : rule_sound reduce_minus_to_sum_with_negation.
Proof.
  intros e e' H. rule_shape e a b n. injection H as <-.
  rule_intro. intros rho _ D. split; [tauto | ring].
Qed.

Lemma reduce_divide_to_multiplying_with_reciprocal_sound : rule_sound reduce_divide_to_multiplying_with_reciprocal.
Proof.
  intros e e' H. rule_shape e a b n. injection H as <-.
  rule_intro. intros rho _ D. split; [tauto | unfold Rdiv; ring].
Qed.

Lemma reduce_negation_of_negation_sound : rule_sound reduce_negation_of_negation.
Proof.
  intros e e' H. rule_shape e w b n. rule_shape w u b n. injection H as <-.
  rule_intro. intros rho _ D. split; [exact D | ring].
Qed.

Lemma reduce_reciprocal_of_reciprocal_sound : rule_sound reduce_reciprocal_of_reciprocal.
Proof.
  intros e e' H. rule_shape e w b n. rule_shape w u b n. injection H as <-.
  rule_intro. intros rho _ D. split; [tauto | symmetry; apply Rinv_inv].
Qed.

Lemma reduce_reciprocal_of_negation_sound : rule_sound reduce_reciprocal_of_negation.
Proof.
  intros e e' H. rule_shape e w b n. rule_shape w u b n. injection H as <-.
  rule_intro. intros rho _ [D N]. split; [split; [exact D | lra] | symmetry; apply Rinv_opp].
Qed.

Lemma reduce_cosine_of_negation_sound : rule_sound reduce_cosine_of_negation.
Proof.
  intros e e' H. rule_shape e w b n. rule_shape w u b n. injection H as <-.
  rule_intro. intros rho _ D. split; [exact D | symmetry; apply cos_neg].
Qed.

Lemma reduce_sine_of_negation_sound : rule_sound reduce_sine_of_negation.
Proof.
  intros e e' H. rule_shape e w b n. rule_shape w u b n. injection H as <-.
  rule_intro. intros rho _ D. split; [exact D | symmetry; apply sin_neg].
Qed.

Lemma reduce_negation_of_sum_sound : rule_sound reduce_negation_of_sum.
Proof.
  intros e e' H. rule_shape e w b n. rule_shape w u b n. injection H as <-.
  apply (nary_distribute Neg_through). intros x y _. exact (conj I I).
Qed.

Lemma reduce_reciprocal_of_product_sound : rule_sound reduce_reciprocal_of_product.
Proof.
  intros e e' H. rule_shape e w b n. rule_shape w u b n. injection H as <-.
  apply (nary_distribute Recip_through). intros x y. apply Rmult_neq_0_reg.
Qed.

Lemma RA_nary_flatten b before nested after :
  refines (nary b (before ++ nary b nested :: after)) (nary b (before ++ nested ++ after)).
Proof.
  apply nary_app; [apply refines_refl|].
  apply (nary_app b [nary b nested] nested); [apply nary_unwrap | apply refines_refl].
Qed.

Lemma flattening_sound (s : bool) :
  rule_sound (if s then reduce_by_flattening_nested_sums else reduce_by_flattening_nested_products).
Proof.
  intros e e' H. destruct s, e; try discriminate.
  all: cbn [reduce_by_flattening_nested_sums reduce_by_flattening_nested_products] in H.
  all: destruct (split_first _ l) as [[[b h] a]|] eqn:S; [|discriminate].
  all: apply split_first_spec in S; destruct S as [-> _].
  all: destruct h; try discriminate; injection H as <-.
  - apply (RA_nary_flatten true).
  - apply (RA_nary_flatten false).
Qed.

Lemma RA_is_const_eq c e : is_const_eq RInst c e = true -> e = Const c.
Proof.
  destruct e; cbn [is_const_eq]; try discriminate. intro H. apply Reqb_true in H. congruence.
Qed.

Lemma RA_nary_drop_units (b : bool) l :
  refines (nary b (filter (is_const_eq RInst (opR b [])) l)) (nary b []).
Proof.
  apply nary_intro; [constructor | apply incl_nil_l |]. intros rho _. split; [constructor|].
  induction l as [|a l IH]; [reflexivity|]. cbn [filter].
  destruct (is_const_eq RInst (opR b []) a) eqn:C; [|exact IH].
  apply RA_is_const_eq in C. subst a. cbn [map denote]. rewrite opR_cons, <- IH.
  destruct b; cbn; ring.
Qed.

Lemma eliminating_units_sound (s : bool) :
  rule_sound (if s then reduce_sum_by_eliminating_zeros RInst else reduce_product_by_eliminating_ones RInst).
Proof.
  intros e e' H. destruct s, e; try discriminate.
  all: unfold reduce_sum_by_eliminating_zeros, reduce_product_by_eliminating_ones in H.
  all: match type of H with (if ?c then _ else _) = _ => destruct c end; [discriminate|].
  all: injection H as <-; rewrite <- (app_nil_r (filter _ l)).
  - apply (nary_filter true (is_const_eq RInst 0)), (RA_nary_drop_units true).
  - apply (nary_filter false (is_const_eq RInst 1)), (RA_nary_drop_units false).
Qed.

Lemma RA_prod_zero l : In 0 l -> opR false l = 0.
Proof.
  induction l as [|a l IH]; [intros []|]. rewrite opR_cons. cbn [op2].
  intros [->|H]; [|rewrite IH by exact H]; ring.
Qed.

Lemma reduce_product_when_multiplying_by_zero_sound : rule_sound (reduce_product_when_multiplying_by_zero RInst).
Proof.
  intros e e' H. destruct e; try discriminate. unfold reduce_product_when_multiplying_by_zero in H.
  destruct (existsb (is_const_eq RInst (n0 RInst)) l) eqn:Z; [|discriminate]. injection H as <-.
  apply existsb_exists in Z. destruct Z as [x [Hin Hx]]. apply RA_is_const_eq in Hx. subst x.
  rule_intro. intros rho _ _. split; [exact I|]. symmetry.
  exact (eq_trans (den_nary false rho l) (RA_prod_zero _ (in_map (denote rho) _ _ Hin))).
Qed.

Lemma RA_nary_consts b l :
  refines (nary b (filter is_Const l)) (nary b [Const (opR b (const_values (filter is_Const l)))]).
Proof.
  apply nary_intro; [repeat constructor | apply incl_nil_l |].
  intros rho _. split; [repeat constructor|]. cbn [map denote]. rewrite opR_cons.
  replace (map (denote rho) (filter is_Const l)) with (const_values (filter is_Const l)).
  - destruct b; cbn; ring.
  - unfold const_values. induction l as [|a l IH]; [reflexivity|].
    destruct a; cbn [filter is_Const flat_map map denote app]; congruence.
Qed.

Lemma consolidating_constants_sound (s : bool) :
  rule_sound (if s then reduce_sum_by_consolidating_constants RInst
              else reduce_product_by_consolidating_constants RInst).
Proof.
  intros e e' H. destruct s, e; try discriminate.
  all: unfold reduce_sum_by_consolidating_constants, reduce_product_by_consolidating_constants, partition_by in H.
  all: match type of H with (if ?c then _ else _) = _ => destruct c end; [discriminate|].
  - injection H as <-. exact (nary_filter true is_Const l _ (RA_nary_consts true l)).
  - rewrite mf_multiply_R in H. injection H as <-.
    exact (nary_filter false is_Const l _ (RA_nary_consts false l)).
Qed.

Lemma RA_pow_m1 n : (-1) ^ n = if Nat.even n then 1 else -1.
Proof.
  induction n as [|n IH]; [reflexivity|].
  rewrite Nat.even_succ, <- Nat.negb_even. cbn [pow]. rewrite IH.
  destruct (Nat.even n); cbn [negb]; lra.
Qed.

Lemma RA_prod_negs rho (us : list E) :
  opR false (map (denote rho) (map Neg us)) =
  (-1) ^ (List.length us) * opR false (map (denote rho) us).
Proof.
  unfold opR. induction us as [|a us IH]; cbn [map List.length denote fold_right op2 pow]; [ring|].
  rewrite IH. ring.
Qed.

Lemma RA_nary_negs (us : list E) :
  refines (nary false (map Neg us))
          (nary false (us ++ (if Nat.even (List.length us) then [] else [Const (-1)]))).
Proof.
  apply nary_intro.
  - intro W. rewrite Forall_map in W. apply Forall_app. split; [exact W|].
    destruct (Nat.even _); repeat constructor.
  - rewrite flat_map_app, (flat_map_vars_map Neg) by reflexivity.
    destruct (Nat.even _); cbn [flat_map vars app]; rewrite app_nil_r; apply incl_refl.
  - intros rho D. rewrite Forall_map in D. split.
    + apply Forall_app. split; [exact D|]. destruct (Nat.even _); repeat constructor.
    + rewrite map_app, opR_app, RA_prod_negs, RA_pow_m1.
      destruct (Nat.even _); cbn; ring.
Qed.

Lemma reduce_product_by_eliminating_negations_sound : rule_sound (reduce_product_by_eliminating_negations RInst).
Proof.
  intros e e' H. destruct e; try discriminate.
  unfold reduce_product_by_eliminating_negations, partition_by in H.
  assert (H' : Some (Mul (filter (fun x => negb (is_Neg x)) l ++ map inner_of (filter is_Neg l) ++
                  (if Nat.even (List.length (map inner_of (filter is_Neg l)))
                   then [] else [Const (-1)]))) = Some e').
  { rewrite map_length. destruct (filter is_Neg l) as [|ng negs'] eqn:En; [discriminate|].
    destruct (Nat.even (List.length (ng :: negs'))); [rewrite app_nil_r|]; exact H. }
  injection H' as <-.
  apply (nary_filter false is_Neg).
  rewrite (filter_shape is_Neg Neg l is_Neg_shape) at 1. apply RA_nary_negs.
Qed.

(** ** The four consolidation rules are one rule.
    It mirrors their common Python body: the operands are partitioned by type ([isX]); those of
    the type are grouped by [group_by_key] on their index or base; unless every group is a
    singleton, a group [F u1 k, .., F un k] is rebuilt as [F] of the [b']-node of [u1 .. un]. *)
Definition consolidating {K} (b b' : bool) (isX : E -> bool) (keqb : K -> K -> bool)
    (keyf : E -> K) (F : E -> K -> E) (l : list E) : option E :=
  let (xs, others) := partition_by isX l in
  if Nat.leb (List.length xs) 1 then None
  else
    let groups := group_by_key keqb keyf xs in
    if all_singletons groups then None
    else Some (nary b (others ++
                       map (fun kv => F (nary b' (map inner_of (snd kv))) (fst kv)) groups)).

Lemma consolidating_nth_powers l :
  reduce_product_by_consolidating_nth_powers (Mul l) =
  consolidating false false is_NthPow Pos.eqb pos_of_nth (fun u k => NthPow u k) l.
Proof. reflexivity. Qed.

Lemma consolidating_nth_roots l :
  reduce_product_by_consolidating_nth_roots (Mul l) =
  consolidating false false is_NthRoot Pos.eqb pos_of_nth (fun u k => NthRoot u k) l.
Proof. reflexivity. Qed.

Lemma consolidating_exponentials l :
  reduce_product_by_consolidating_exponentials RInst (Mul l) =
  consolidating false true is_Exp Reqb (base_of RInst) (fun u k => Exp u k) l.
Proof. reflexivity. Qed.

Lemma consolidating_logarithms l :
  reduce_sum_by_consolidating_logarithms RInst (Add l) =
  consolidating true false is_Log Reqb (base_of RInst) (fun u k => Log u k) l.
Proof. reflexivity. Qed.

Lemma consolidating_sound {K} b b' (isX : E -> bool) (keqb : K -> K -> bool) (keyf : E -> K)
      (F : E -> K -> E) (h : K -> R -> R) (D : K -> R -> Prop) l e' :
  (forall k k', keqb k k' = true -> k = k') ->
  (forall v, isX v = true -> v = F (inner_of v) (keyf v)) ->
  (forall k, through b b' (fun u => F u k) (h k) (D k)) ->
  consolidating b b' isX keqb keyf F l = Some e' -> refines (nary b l) e'.
Proof.
  intros Hkeq Hshape Hthrough H. unfold consolidating, partition_by in H.
  destruct (Nat.leb _ 1); [discriminate|]. destruct (all_singletons _); [discriminate|].
  injection H as <-.
  destruct (group_by_key_spec keqb keyf (filter isX l)) as [Hperm Hgrouped].
  apply (nary_filter b isX).
  apply (refines_trans _ _ _ (nary_perm b _ _ (Permutation_sym Hperm))).
  apply (nary_flat_map b snd (fun kv => F (nary b' (map inner_of (snd kv))) (fst kv))).
  intros [k vs] Hg. cbn [fst snd].
  destruct (proj1 (Forall_forall _ _) Hgrouped _ Hg) as [Hne Hkey]. cbn [fst snd] in Hne, Hkey.
  assert (Hvs : map (fun u => F u k) (map inner_of vs) = vs).
  { etransitivity; [|apply map_id]. rewrite map_map. apply map_ext_in. intros v Hv.
    assert (Kv : keyf v = k) by (destruct (proj1 (Forall_forall _ _) Hkey v Hv); auto).
    rewrite <- Kv. symmetry. apply Hshape.
    apply (filter_In isX v l), (Permutation_in _ Hperm), in_flat_map. exists (k, vs). split; assumption. }
  rewrite <- Hvs at 1. apply (nary_collect (Hthrough k)). intro Hc. apply map_eq_nil in Hc. contradiction.
Qed.

Lemma NthPow_through k : 
  through false false (fun u => NthPow u k) (fun x => x ^ Pos.to_nat k) (fun _ => True).
Proof.
  refine {| f_vars := fun u => eq_refl;
            f_den := fun rho u => eq_refl;
            D_unit := I;
            D_op := fun _ _ _ _ => I;
            h_unit := pow1 (Pos.to_nat k);
            h_op := fun x y _ _ => Rpow_mult_distr x y (Pos.to_nat k);
            f_wf := _;
            f_dom := _ |}.
  all: cbn [wf InDomain]; tauto.
Qed.

Lemma Rpower_0_r (x : R) : Rpower x 0 = 1.
Proof. unfold Rpower. rewrite Rmult_0_l. apply exp_0. Qed.

Lemma Exp_through k : through false true (fun u => Exp u k) (Rpower k) (fun _ => True).
Proof.
  refine {| f_vars := fun u => eq_refl;
            f_den := fun rho u => eq_refl;
            D_unit := I;
            D_op := fun _ _ _ _ => I;
            h_unit := Rpower_0_r k;
            h_op := fun x y _ _ => Rpower_plus x y k;
            f_wf := _;
            f_dom := _ |}.
  all: cbn [wf InDomain]; tauto.
Qed.

Lemma log_1 (k : R) : ln 1 / ln k = 0.
Proof. rewrite ln_1. unfold Rdiv. ring. Qed.

Lemma log_mult (k x y : R) : 0 < x -> 0 < y -> ln (x * y) / ln k = ln x / ln k + ln y / ln k.
Proof. intros X Y. rewrite ln_mult by assumption. unfold Rdiv. ring. Qed.

Lemma Log_through k : through true false (fun u => Log u k) (fun x => ln x / ln k) (fun x => 0 < x).
Proof.
  refine {| f_vars := fun u => eq_refl;
            f_den := fun rho u => eq_refl;
            D_unit := Rlt_0_1;
            D_op := Rmult_lt_0_compat;
            h_unit := log_1 k;
            h_op := log_mult k;
            f_wf := _;
            f_dom := _ |}.
  all: cbn [wf InDomain]; tauto.
Qed.

Lemma NthRoot_through k : through false false (fun u => NthRoot u k) (root k) (root_dom k).
Proof.
  refine {| f_vars := fun u => eq_refl;
            f_den := fun rho u => eq_refl;
            D_unit := root_dom_one k;
            D_op := root_dom_mult k;
            h_unit := root_of_1 k;
            h_op := fun x y _ _ => root_mult k x y;
            f_wf := _;
            f_dom := _ |}.
  all: cbn [wf InDomain]; unfold root_dom; tauto.
Qed.

Lemma reduce_product_by_consolidating_nth_powers_sound : rule_sound reduce_product_by_consolidating_nth_powers.
Proof.
  intros e e' H. destruct e; try discriminate. rewrite consolidating_nth_powers in H.
  refine (consolidating_sound _ _ _ _ _ _ _ _ l e' _ _ NthPow_through H).
  - apply Pos.eqb_eq.
  - intros v X. destruct v; try discriminate X; reflexivity.
Qed.

Lemma reduce_product_by_consolidating_exponentials_sound : rule_sound (reduce_product_by_consolidating_exponentials RInst).
Proof.
  intros e e' H. destruct e; try discriminate. rewrite consolidating_exponentials in H.
  refine (consolidating_sound _ _ _ _ _ _ _ _ l e' _ _ Exp_through H).
  - apply Reqb_true.
  - intros v X. destruct v; try discriminate X; reflexivity.
Qed.

Lemma reduce_sum_by_consolidating_logarithms_sound : rule_sound (reduce_sum_by_consolidating_logarithms RInst).
Proof.
  intros e e' H. destruct e; try discriminate. rewrite consolidating_logarithms in H.
  refine (consolidating_sound _ _ _ _ _ _ _ _ l e' _ _ Log_through H).
  - apply Reqb_true.
  - intros v X. destruct v; try discriminate X; reflexivity.
Qed.

Lemma reduce_product_by_consolidating_nth_roots_sound : rule_sound reduce_product_by_consolidating_nth_roots.
Proof.
  intros e e' H. destruct e; try discriminate. rewrite consolidating_nth_roots in H.
  refine (consolidating_sound _ _ _ _ _ _ _ _ l e' _ _ NthRoot_through H).
  - apply Pos.eqb_eq.
  - intros v X. destruct v; try discriminate X; reflexivity.
Qed.

Lemma sound_Add : Forall RA_sound (reducers_Add RInst).
Proof.
  repeat apply Forall_cons; [..|apply Forall_nil].
  - exact (flattening_sound true).
  - exact (eliminating_units_sound true).
  - exact reduce_sum_by_consolidating_logarithms_sound.
  - exact (consolidating_constants_sound true).
Qed.

Lemma sound_Minus : Forall RA_sound (reducers_Minus (T:=R)).
Proof. repeat apply Forall_cons; [exact reduce_minus_to_sum_with_negation_sound | apply Forall_nil]. Qed.

Lemma sound_Negation : Forall RA_sound (reducers_Negation (T:=R)).
Proof.
  repeat apply Forall_cons; [..|apply Forall_nil].
  - exact reduce_negation_of_negation_sound.
  - exact reduce_negation_of_sum_sound.
Qed.

Lemma sound_Multiply : Forall RA_sound (reducers_Multiply RInst).
Proof.
  repeat apply Forall_cons; [..|apply Forall_nil].
  - exact (flattening_sound false).
  - exact reduce_product_when_multiplying_by_zero_sound.
  - exact (eliminating_units_sound false).
  - exact reduce_product_by_eliminating_negations_sound.
  - exact reduce_product_by_consolidating_nth_powers_sound.
  - exact reduce_product_by_consolidating_nth_roots_sound.
  - exact reduce_product_by_consolidating_exponentials_sound.
  - exact (consolidating_constants_sound false).
Qed.

Lemma sound_Divide : Forall RA_sound (reducers_Divide (T:=R)).
Proof.
  repeat apply Forall_cons; [exact reduce_divide_to_multiplying_with_reciprocal_sound | apply Forall_nil].
Qed.

Lemma sound_Reciprocal : Forall RA_sound (reducers_Reciprocal (T:=R)).
Proof.
  repeat apply Forall_cons; [..|apply Forall_nil].
  - exact reduce_reciprocal_of_reciprocal_sound.
  - exact reduce_reciprocal_of_negation_sound.
  - exact reduce_reciprocal_of_product_sound.
Qed.

Lemma sound_Cosine : Forall RA_sound (reducers_Cosine (T:=R)).
Proof. repeat apply Forall_cons; [exact reduce_cosine_of_negation_sound | apply Forall_nil]. Qed.

Lemma sound_Sine : Forall RA_sound (reducers_Sine (T:=R)).
Proof. repeat apply Forall_cons; [exact reduce_sine_of_negation_sound | apply Forall_nil]. Qed.

Theorem rules_sound_A : forall nm f (e e' : expr R),
  In (nm, f) (reducers_Add RInst ++ reducers_Minus ++ reducers_Negation ++
              reducers_Multiply RInst ++ reducers_Divide ++ reducers_Reciprocal ++
              reducers_Cosine ++ reducers_Sine) ->
  f e = Some e' -> refines e e'.
Proof.
  intros nm f e e' Hin. refine (proj1 (Forall_forall RA_sound _) _ (nm, f) Hin e e').
  repeat (apply Forall_app; split).
  - exact sound_Add.
  - exact sound_Minus.
  - exact sound_Negation.
  - exact sound_Multiply.
  - exact sound_Divide.
  - exact sound_Reciprocal.
  - exact sound_Cosine.
  - exact sound_Sine.
Qed.

Example RA_ex_nth_powers :
  let e := Mul [NthPow (Var 1%positive) 2; Var 2%positive; NthPow (Var 3%positive) 2] in
  let e' := Mul [Var 2%positive; NthPow (Mul [Var 1%positive; Var 3%positive]) 2] in
  reduce_product_by_consolidating_nth_powers e = Some e' /\ wfR e /\
  (forall rho, InDomain rho e) /\ refines e e'.
Proof.
  intros e e'. assert (H : reduce_product_by_consolidating_nth_powers e = Some e') by reflexivity.
  split; [exact H|]. split; [simpl; tauto|]. split; [intro rho; simpl; tauto|].
  apply reduce_product_by_consolidating_nth_powers_sound. exact H.
Qed.

Example RA_ex_logarithms :
  let e := Add [Log (Var 1%positive) 2; Var 2%positive; Log (Var 3%positive) 2] in
  let e' := Add [Var 2%positive; Log (Mul [Var 1%positive; Var 3%positive]) 2] in
  reduce_sum_by_consolidating_logarithms RInst e = Some e' /\ wfR e /\
  InDomain (fun _ => 1) e /\ refines e e'.
Proof.
  intros e e'.
  assert (H : reduce_sum_by_consolidating_logarithms RInst e = Some e').
  { unfold e, e', reduce_sum_by_consolidating_logarithms, partition_by, group_by_key.
    cbn [filter is_Log negb List.length Nat.leb fold_left group_insert base_of neqb RInst].
    rewrite (proj2 (Reqb_true 2 2) eq_refl). reflexivity. }
  split; [exact H|]. split.
  - simpl. repeat split; try (apply Rltb_true; lra); apply Reqb_false; lra.
  - split; [simpl; repeat split; lra|].
    apply reduce_sum_by_consolidating_logarithms_sound. exact H.
Qed.

Example RA_ex_in_list :
  In ("_reduce_product_by_consolidating_nth_roots"%string,
      reduce_product_by_consolidating_nth_roots (T := R))
     (reducers_Add RInst ++ reducers_Minus ++ reducers_Negation ++
      reducers_Multiply RInst ++ reducers_Divide ++ reducers_Reciprocal ++
      reducers_Cosine ++ reducers_Sine).
Proof. refine (List.nth_error_In _ 12%nat _). reflexivity. Qed.

(** ** Stated for their own sake; nothing above uses them *)

Definition RA_sumR (l : list R) : R := fold_right Rplus 0 l.

Lemma RA_mf_add vs : mf_add RInst vs = RA_sumR vs.
Proof. reflexivity. Qed.

Lemma RA_filter_perm' {A} (f : A -> bool) l :
  Permutation l (filter f l ++ filter (fun x => negb (f x)) l).
Proof.
  eapply Permutation_trans; [apply filter_perm with (f := f)|apply Permutation_app_comm].
Qed.

Lemma RA_root_1 x : root 1 x = x.
Proof. apply root_1. Qed.

Lemma RA_root_neq_0 n x : x <> 0 -> root n x <> 0.
Proof. apply root_nonzero. Qed.

Lemma RA_in_all_rules nm f :
  In (nm, f) (reducers_Add RInst ++ reducers_Minus ++ reducers_Negation ++
              reducers_Multiply RInst ++ reducers_Divide ++ reducers_Reciprocal ++
              reducers_Cosine ++ reducers_Sine) ->
  In (nm, f) (all_rules RInst).
Proof.
  generalize (nm, f). unfold all_rules.
  do 6 (apply incl_app_app; [apply incl_refl|]). do 5 apply incl_appr. apply incl_refl.
Qed.

Print Assumptions rules_sound_A.
