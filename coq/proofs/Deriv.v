(** C03: the forward-mode numeric partial [fwd RInst] returns the true partial derivative of the
    function denoted by the expression ([fwd_sound]), and exactly 0 for a variable that does not
    occur ([fwd_absent]). *)
From Coq Require Import Reals ZArith List Bool Lra.
From SM Require Import Num Syntax Outcome MathFun Eval Forward RInst Denote Spec.
From SM.proofs Require Import SyntaxFacts RInstFacts DerivLemmas DerivFacts.
Import ListNotations.
Open Scope R_scope.

Section D.
  Hypothesis Heval : C01_eval_sound.

  Variable p : point R.
  Variable v : name.
  Notation rho := (env_of p).

  Definition D_P (e : expr R) : Prop :=
    admits p e -> exists d, fwdR v p e = Val d /\ true_partial rho e v d.

  Lemma D_fwd_list (l : list (expr R)) :
    Forall D_P l -> Forall (admits p) l ->
    exists ds, sequence (map (fwdR v p) l) = Val ds /\
               Forall2 (fun a d => true_partial rho a v d) l ds.
  Proof.
    induction 1 as [|a l Ha Hl IH]; intro Hok; cbn [map sequence].
    - exists []. split; [reflexivity | constructor].
    - inversion Hok as [|? ? Hoa Hol]; subst.
      destruct (Ha Hoa) as (d & Hfa & Hta). destruct (IH Hol) as (ds & Hfl & Htl).
      exists (d :: ds). rewrite Hfa, Hfl. split; [reflexivity | constructor; assumption].
  Qed.

  Lemma D_fwd_sound_all : forall e : expr R, D_P e.
  Proof.
    induction e as [c|x|l IHl|l IHl|a b IHa IHb|a b IHa IHb|a b IHa IHb|e Hu IH]
      using expr_ind_unary; intro Hok.
    - exists 0. split; [reflexivity | apply tp_const].
    - cbn [fwd]. destruct (name_eqb x v) eqn:E.
      + apply name_eqb_eq in E. subst x. exists 1. split; [reflexivity | apply tp_var_same].
      + apply name_eqb_neq in E. exists 0. split; [reflexivity | apply tp_var_other, E].
    - destruct (D_fwd_list l IHl (admits_Add p l Hok)) as (ds & Hf & Ht).
      exists (fold_right Rplus 0 ds). cbn [fwd]. rewrite Hf.
      split; [reflexivity | apply tp_add, Ht].
    - pose proof (admits_Mul p l Hok) as Hol.
      destruct (D_fwd_list l IHl Hol) as (ds & Hf & Ht).
      cbn [fwd]. rewrite (admits_eval_list Heval p l Hol), Hf. cbn [bind].
      eexists; split; [reflexivity|].
      rewrite mf_add_R. unfold mapi. erewrite mapi_from_ext; [apply tp_mul, Ht|].
      intros i x; apply mf_multiply_R.
    - destruct (admits_Minus p a b Hok) as [Ha Hb].
      destruct (IHa Ha) as (da & Hfa & Hta). destruct (IHb Hb) as (db & Hfb & Htb).
      exists (da - db). cbn [fwd]. rewrite Hfa, Hfb.
      split; [reflexivity | apply tp_minus; assumption].
    - destruct (admits_Divide p a b Hok) as (Ha & Hb & Hnz).
      destruct (IHa Ha) as (da & Hfa & Hta). destruct (IHb Hb) as (db & Hfb & Htb).
      eexists. split; [apply (fwd_Divide_adm Heval); eassumption | apply tp_divide; assumption].
    - destruct (admits_Power p a b Hok) as (Ha & Hb & Hpos).
      destruct (IHa Ha) as (da & Hfa & Hta). destruct (IHb Hb) as (db & Hfb & Htb).
      destruct (power_shortcut_adm Heval p a Ha) as (sc & Hsc & H1).
      eexists. split; [apply (fwd_Power_adm Heval); eassumption|].
      destruct sc; [|apply tp_power; assumption].
      (* the shortcut: the base has no variables and the value 1, so its partial is 0 and
         the factor [ln 1] of the exponent's partial is 0 *)
      destruct (H1 eq_refl) as [Hv E1].
      apply tp_ext_value with
        (denote rho b * Rpower (denote rho a) (denote rho b - 1) * 0
         + ln (denote rho a) * Rpower (denote rho a) (denote rho b) * db).
      + apply tp_power; [exact Hpos | apply tp_absent | exact Htb]. rewrite Hv. intros [].
      + rewrite E1, ln_1. ring.
    - destruct (IH (admits_inner p e Hok)) as (da & Hfa & Hta).
      exists (dfac rho e * da).
      split; [apply (fwd_unary_adm Heval); assumption | apply tp_unary; [exact Hu | apply Hok | exact Hta]].
  Qed.
End D.

Section Main.
  Hypothesis Heval : C01_eval_sound.

  Theorem fwd_sound : C03_fwd_sound.
  Proof. intros p e v Hw Hs Hd. exact (D_fwd_sound_all Heval p v e (conj (conj Hw Hd) Hs)). Qed.

  Theorem fwd_absent : C03_fwd_absent.
  Proof.
    intros p e v Hwf Hs Hd Hv.
    destruct (fwd_sound p e v Hwf Hs Hd) as [d [Hf Ht]].
    rewrite Hf. f_equal.
    apply (tp_unique (env_of p) v e); [exact Ht | apply tp_absent; exact Hv].
  Qed.
End Main.

(** Non-vacuity: the premises of both theorems hold on a tree with genuine domain constraints
    (x ^ (y * log_2 x) at x = 2, y = 3; the variable 3 does not occur). *)
Example D_premises_satisfiable :
  let p : point R := [(1%positive, 2); (2%positive, 3)] in
  let e : expr R :=
    Power (Var 1%positive) (Mul [Var 2%positive; Log (Var 1%positive) 2]) in
  wfR e /\ supplies p e /\ InDomain (env_of p) e /\ ~ In 3%positive (vars e).
Proof.
  cbv zeta. repeat split.
  - change (Rltb 0 2 = true). apply Rltb_true. lra.
  - change (Reqb 2 1 = false). apply Reqb_false. lra.
  - intros x Hx. cbn in Hx.
    destruct Hx as [Hx|[Hx|[Hx|[]]]]; subst x; cbn; discriminate.
  - change (0 < 2). lra.
  - change (0 < 2). lra.
  - cbn. intros [H|[H|[H|[]]]]; discriminate.
Qed.

(* Stated for their own sake; nothing uses them. *)
Lemma D_mf_minus (x y : R) : mf_minus RInst x y = x - y.
Proof. reflexivity. Qed.

Lemma D_mf_negation (x : R) : mf_negation RInst x = - x.
Proof. reflexivity. Qed.

Lemma D_supplies_cons_mul (p : point R) (a : expr R) (l : list (expr R)) :
  supplies p (Mul (a :: l)) -> supplies p a /\ supplies p (Mul l).
Proof. apply (supplies_app p a (Mul l)). Qed.

Lemma D_supplies_add_mul (p : point R) (l : list (expr R)) :
  supplies p (Mul l) <-> supplies p (Add l).
Proof. split; intro H; exact H. Qed.

Print Assumptions fwd_sound.
Print Assumptions fwd_absent.
