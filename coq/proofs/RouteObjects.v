(** The last sentence of C06 — [Differential(e).component(v)] equals
    [Partial(e, v)] and [Differential(e).at(p)] equals [LocatedDifferential(e, p)] — about the
    object model of RouteAst.v (which TieRoute.v ties to the source of the four classes) and the
    equality of Objects.v (which TieObj.v ties to the source of the [__eq__] methods: it looks at
    the original expression, the variable name and the point, and at nothing else). *)
From Coq Require Import List Bool PArith Reals.
From SM Require Import Num Syntax Outcome Eval Forward Reverse Synth RInst Objects SpecObjects RouteAst
  Spec SpecRoutes.
From SM.proofs Require Import EqHash Glue.
Import ListNotations.

Section RouteObjects.
  Context {T : Type} (N : NumOps T).
  Variable norm : expr T -> expr T.
  Variable enum : expr T -> list name.

  Lemma component_fields (o : diff_obj) (v : name) :
    partial_pyobj (diff_component N norm o v) = OPartial (de o) v.
  Proof.
    unfold diff_component. destruct (dsps o) as [sps|]; [destruct (slookup v sps)|]; reflexivity.
  Qed.

  Lemma mk_located_fields : forall e p priv l,
    mk_located N enum e p priv = Val l -> located_pyobj l = OLocated e p.
  Proof.
    intros e p priv l. unfold mk_located. destruct priv as [nps|].
    - intros H. injection H as <-. reflexivity.
    - destruct (numeric_partials N p e (enum e)) as [nps| | |]; cbn; intros H; try discriminate.
      injection H as <-. reflexivity.
  Qed.

  Lemma diff_at_fields (o : diff_obj) (p : point T) l :
    diff_at N enum o p = Val l -> located_pyobj l = OLocated (de o) p.
  Proof.
    unfold diff_at. destruct (eval N p (de o)); cbn [bind]; try discriminate.
    destruct (dsps o) as [sps|]; [|apply mk_located_fields].
    destruct (eval_values N p sps); cbn [bind]; try discriminate. apply mk_located_fields.
  Qed.

  (** so both equalities of C06 compare an object with itself *)
  Hypothesis HN : num_equiv N.

  Lemma component_equals_partial : forall e v early early',
    py_eq N (partial_pyobj (diff_component N norm (mk_differential N norm enum e early) v))
            (partial_pyobj (mk_partial N norm e v early' None)) = true /\
    py_eq N (partial_pyobj (mk_partial N norm e v early' None))
            (partial_pyobj (diff_component N norm (mk_differential N norm enum e early) v)) = true.
  Proof.
    intros e v early early'. rewrite component_fields. split; apply (py_eq_refl N HN (OPartial e v) I).
  Qed.

  Lemma at_equals_located : forall e p early o o',
    NoDup (map fst p) ->
    diff_at N enum (mk_differential N norm enum e early) p = Val o ->
    mk_located N enum e p None = Val o' ->
    py_eq N (located_pyobj o) (located_pyobj o') = true /\ py_eq N (located_pyobj o') (located_pyobj o) = true.
  Proof.
    intros e p early o o' Hnd Ho Ho'.
    rewrite (diff_at_fields _ p o Ho), (mk_located_fields e p None o' Ho').
    split; apply (py_eq_refl N HN (OLocated e p) Hnd).
  Qed.
End RouteObjects.

Lemma component_equals_partial_R : C06_component_equals_partial.
Proof. intros norm enum. exact (component_equals_partial RInst norm enum RInst_equiv). Qed.

Lemma at_equals_located_R : C06_at_equals_located.
Proof. intros norm enum. exact (at_equals_located RInst norm enum RInst_equiv). Qed.

(** [Differential(e).at(p)] and [LocatedDifferential(e, p)] succeed or fail together, with the same
    partials: the late [at] evaluates the original first and then does exactly what the constructor
    of LocatedDifferential does.  The evaluation gives a value or DomainError ([GL_eval_cases]), and
    where it gives DomainError so does the reverse sweep ([GL_rev_domerr]). *)
Lemma at_located_same_outcome : C06_at_located_same_outcome.
Proof.
  intros norm enum e p Hwf Hsup.
  unfold diff_at, mk_differential. cbn [de dsps]. change (eval RInst p e) with (evalR p e).
  destruct (GL_eval_cases p e Hwf Hsup) as [[_ E]|[_ E]]; rewrite E; cbn [bind]; [reflexivity|].
  unfold mk_located. rewrite (GL_rev_domerr p e (enum e) Hwf E). reflexivity.
Qed.
