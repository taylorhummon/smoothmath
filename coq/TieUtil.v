(** The bodies of the list / dictionary helpers (GeneratedUtil.v) compute the polymorphic list
    functions of UtilAst.v, for every list, index and callable; the helper primitives of SymAst,
    OrchAst, StepAst, Rules and Forward are those same functions (end of the file). *)
From Coq Require Import ZArith List Bool String Ascii Lia.
From SM Require Import UtilAst GeneratedUtil TieTactics.
Import ListNotations.
Open Scope string_scope.
Open Scope list_scope.

Section PolyFacts.
  Context {X : Type}.

  Lemma firstn_skipn_remove : forall (l : list X) j, firstn j l ++ skipn (S j) l = remove_at j l.
  Proof.
    induction l as [|x l IH]; intros [|j]; cbn [firstn skipn remove_at app]; try reflexivity.
    f_equal. apply IH.
  Qed.

  Lemma firstn_skipn_update : forall (l : list X) j y, j < List.length l ->
    (firstn j l ++ [y]) ++ skipn (S j) l = update_at j y l.
  Proof.
    induction l as [|x l IH]; intros [|j] y Hlt; cbn [firstn skipn update_at app List.length] in *; try lia; try reflexivity.
    f_equal. apply IH. lia.
  Qed.

  Lemma remove_at_ge : forall (l : list X) j, List.length l <= j -> remove_at j l = l.
  Proof.
    induction l as [|x l IH]; intros [|j] H; cbn [remove_at List.length] in *; try reflexivity; try lia.
    f_equal. apply IH. lia.
  Qed.

  Lemma update_at_ge : forall (l : list X) j y, List.length l <= j -> update_at j y l = l.
  Proof.
    induction l as [|x l IH]; intros [|j] y H; cbn [update_at List.length] in *; try reflexivity; try lia.
    f_equal. apply IH. lia.
  Qed.

  Lemma py_index_nat : forall (l : list X) k,
    py_index (Z.of_nat k) l = if Nat.ltb k (List.length l) then Some k else None.
  Proof.
    intros l k. unfold py_index. destruct (Nat.ltb_spec k (List.length l)).
    - replace (_ || _) with false by lia. replace (Z.geb _ 0) with true by lia.
      rewrite Nat2Z.id. reflexivity.
    - replace (_ || _) with true by lia. reflexivity.
  Qed.

  Lemma py_without_nat : forall (l : list X) k, py_without (Z.of_nat k) l = remove_at k l.
  Proof.
    intros l k. unfold py_without. rewrite py_index_nat.
    destruct (Nat.ltb_spec k (List.length l)); [reflexivity | symmetry; apply remove_at_ge; assumption].
  Qed.

  Lemma py_updated_nat : forall (l : list X) k y, py_updated (Z.of_nat k) y l = update_at k y l.
  Proof.
    intros l k y. unfold py_updated. rewrite py_index_nat.
    destruct (Nat.ltb_spec k (List.length l)); [reflexivity | symmetry; apply update_at_ge; assumption].
  Qed.

  Lemma slice_bounds : forall jz : Z, (0 <= jz)%Z ->
    nat_of_z 0 = Some O /\ nat_of_z jz = Some (Z.to_nat jz) /\ nat_of_z (jz + 1) = Some (S (Z.to_nat jz)).
  Proof.
    intros jz H. unfold nat_of_z. replace (Z.leb 0 jz) with true by lia.
    replace (Z.leb 0 (jz + 1)) with true by lia. replace (Z.to_nat (jz + 1)) with (S (Z.to_nat jz)) by lia.
    repeat split.
  Qed.
End PolyFacts.

(** [ublock_k] hands each branch of a top-level [if] the rest of the block, so that one pass of
    [lazy] turns a body without loops into the tree of its conditions (as SymRun.sblock_k). *)
Section Run.
  Variable A : Type.
  Variable C : Type.
  Notation uval := (uval A C).
  Variable keq : uval -> uval -> bool.
  Variable apply1 : C -> uval -> option uval.
  Variable apply2 : C -> uval -> uval -> option uval.
  Variable isinst : uval -> C.
  Variable helper : string -> list uval -> option uval.
  Notation uenv := (uenv A C).
  Notation uflow := (uflow A C).
  Notation uev := (uev A C keq apply1 apply2 isinst helper).
  Notation uexec := (uexec A C keq apply1 apply2 isinst helper).
  Notation ublock := (ublock A C keq apply1 apply2 isinst helper).

  Fixpoint ublock_k (r : uenv) (l : list ustmt) (k : uenv -> option uflow) : option uflow :=
    match l with
    | [] => k r
    | USIf c th el :: rest =>
        match uev r c with
        | Some (UVB true) => andthen (ublock r th) (fun r' => ublock_k r' rest k)
        | Some (UVB false) => andthen (ublock r el) (fun r' => ublock_k r' rest k)
        | _ => None
        end
    | s :: rest => andthen (uexec r s) (fun r' => ublock_k r' rest k)
    end.

  Lemma ublock_k_ok : forall l r k, ublock_k r l k = andthen (ublock r l) k.
  Proof.
    induction l as [|s l IH]; intros r k; [reflexivity|].
    assert (H : andthen (uexec r s) (fun r' => ublock_k r' l k) = andthen (ublock r (s :: l)) k).
    { cbn [UtilAst.ublock]. destruct (uexec r s) as [[r'|v]|]; [apply IH | reflexivity..]. }
    destruct s; try exact H. rewrite <- H. cbn [ublock_k UtilAst.uexec].
    (* the block of a branch, inside [uexec], is [ublock] up to conversion *)
    destruct (uev r c) as [[|[|]| | | | | |]|]; reflexivity.
  Qed.

  Lemma ucall_run : forall f args, List.length (u_params f) = List.length args ->
    ucall A C keq apply1 apply2 isinst helper f args =
    match ublock_k (combine (u_params f) args) (u_body f) (fun r' => Some (inl r')) with
    | Some (inr w) => Some w
    | Some (inl _) => Some UVNone
    | None => None
    end.
  Proof.
    intros f args H. unfold ucall. rewrite H, Nat.eqb_refl, ublock_k_ok.
    destruct (ublock _ _) as [[|]|]; reflexivity.
  Qed.
End Run.

Section Tie.
  Variable A : Type.
  Variable C : Type.
  Notation uval := (uval A C).
  Variable keq : uval -> uval -> bool.
  Variable apply1 : C -> uval -> option uval.
  Variable apply2 : C -> uval -> uval -> option uval.
  Variable isinst : uval -> C.
  Variable helper : string -> list uval -> option uval.

  Notation run f args := (ucall A C keq apply1 apply2 isinst helper f args).

  Ltac ev_lists := with_strategy opaque [Z.geb Z.leb Z.add Z.opp Z.of_nat Z.to_nat skipn firstn List.length app] ev.

  Lemma without_tied : forall (l : list uval) (i : Z),
    run gen_util_list_without_entry_at [UVL l; UVZ i] = Some (UVL (py_without i l)).
  Proof.
    intros l i. rewrite ucall_run by reflexivity. ev_lists.
    destruct (Z.geb i _) eqn:Hge; [rewrite firstn_all; reflexivity|].
    destruct (Z.leb i _) eqn:Hle; [rewrite firstn_all; reflexivity|].
    destruct (Z.geb i 0) eqn:H0.
    - destruct (slice_bounds i) as (-> & -> & ->); [lia|]. ev_lists.
      rewrite firstn_all, skipn_O, firstn_skipn_remove. reflexivity.
    - destruct (slice_bounds (Z.of_nat (List.length l) + i)) as (-> & -> & ->); [lia|]. ev_lists.
      rewrite firstn_all, skipn_O, firstn_skipn_remove. reflexivity.
  Qed.

  Lemma updated_tied : forall (l : list uval) (i : Z) (y : uval),
    run gen_util_list_with_updated_entry_at [UVL l; UVZ i; y] = Some (UVL (py_updated i y l)).
  Proof.
    intros l i y. rewrite ucall_run by reflexivity. ev_lists.
    destruct (Z.geb i _) eqn:Hge; [rewrite firstn_all; reflexivity|].
    destruct (Z.leb i _) eqn:Hle; [rewrite firstn_all; reflexivity|].
    destruct (Z.geb i 0) eqn:H0.
    - destruct (slice_bounds i) as (-> & -> & ->); [lia|]. ev_lists.
      rewrite firstn_all, skipn_O, firstn_skipn_update by lia. reflexivity.
    - destruct (slice_bounds (Z.of_nat (List.length l) + i)) as (-> & -> & ->); [lia|]. ev_lists.
      rewrite firstn_all, skipn_O, firstn_skipn_update by lia. reflexivity.
  Qed.

  (** A loop: the locals are a function [E s o] of the state [s] the model folds over and of the
      item last seen ([o = None] before the loop). One iteration is shown by evaluation, the loop is
      then a pure fold. A caller names the loop body with [set] first: the proof term mentions it
      many times, and each mention would be a copy of the closure. *)
  Lemma ufor_spec : forall (S : Type) (E : S -> option uval -> uenv A C) (step : S -> uval -> S)
                          body (l : list uval),
    (forall s o it, In it l -> body (E s o) it = Some (inl (E (step s it) (Some it)))) ->
    forall s o, exists o', ufor_loop A C body (E s o) l = Some (inl (E (fold_left step l s) o')).
  Proof.
    intros S E step body l. induction l as [|x l IH]; intros Hb s o; cbn [fold_left ufor_loop].
    - exists o. reflexivity.
    - rewrite (Hb s o x (or_introl eq_refl)). apply IH. intros s' o' it Hin. apply Hb. right. exact Hin.
  Qed.

  Section FirstMatch.
    Variable c : C.
    Variable p : uval -> bool.
    Variable l0 : list uval.

    Definition fm_env (o : option (nat * uval)) : uenv A C :=
      [("entries", UVL l0); ("predicate", UVFun c)]
      ++ match o with Some (k, it) => [("i", UVZ (Z.of_nat k)); ("entry", it)] | None => [] end.

    Lemma first_match_loop : forall (l : list uval) o (n : nat) body,
      (forall o k it, In it l ->
         body (fm_env o) k it = Some (if p it then inr (UVTup (UVZ (Z.of_nat k)) it) else inl (fm_env (Some (k, it))))) ->
      exists o', uenum_loop A C body (fm_env o) n l
                 = Some (match find_first_from p n l with
                         | Some (i, x) => inr (UVTup (UVZ (Z.of_nat i)) x)
                         | None => inl (fm_env o')
                         end).
    Proof.
      induction l as [|x l IH]; intros o n body Hb; cbn [find_first_from uenum_loop].
      - exists o. reflexivity.
      - rewrite (Hb o n x (or_introl eq_refl)). destruct (p x); [exists o; reflexivity|].
        apply IH. intros o' k it Hin. apply Hb. right. exact Hin.
    Qed.
  End FirstMatch.

  Lemma first_match_tied : forall (l : list uval) (c : C) (p : uval -> bool),
    (forall x, In x l -> apply1 c x = Some (UVB (p x))) ->
    run gen_util_first_match_by_predicate [UVL l; UVFun c]
    = Some (match find_first_from p O l with
            | Some (i, x) => UVTup (UVZ (Z.of_nat i)) x
            | None => UVNone
            end).
  Proof.
    intros l c p Hp. unfold ucall, gen_util_first_match_by_predicate.
    cbn -[uenum_loop Z.of_nat].
    match goal with
    | |- context [uenum_loop A C ?b _ O l] =>
        set (body := b); destruct (first_match_loop c p l l None O body) as (o' & Hl)
    end.
    - intros o k it Hin. unfold body. destruct o as [[k0 it0]|]; with_strategy opaque [Z.of_nat] ev; rewrite (Hp it Hin);
        destruct (p it); reflexivity.
    - cbn [fm_env app] in Hl. rewrite Hl.
      destruct (find_first_from p O l) as [[i x]|]; [|destruct o' as [[k it]|]]; reflexivity.
  Qed.

  Section Partition.
    Variable c : C.
    Variable p : uval -> bool.
    Variable l0 : list uval.

    Definition pt_env (hm : list uval * list uval) (o : option uval) : uenv A C :=
      [("entries", UVL l0); ("predicate", UVFun c); ("hits", UVL (fst hm)); ("misses", UVL (snd hm))]
      ++ match o with Some it => [("item", it)] | None => [] end.

    Definition pt_step (hm : list uval * list uval) (x : uval) : list uval * list uval :=
      if p x then (fst hm ++ [x], snd hm) else (fst hm, snd hm ++ [x]).

    Lemma pt_fold : forall l h m,
      fold_left pt_step l (h, m) = (h ++ filter p l, m ++ filter (fun x => negb (p x)) l).
    Proof.
      induction l as [|x l IH]; intros h m; cbn [fold_left filter]; [rewrite !app_nil_r; reflexivity|].
      unfold pt_step at 2. cbn [fst snd]. destruct (p x); cbn [negb]; rewrite IH, <- app_assoc; reflexivity.
    Qed.
  End Partition.

  Lemma partition_tied : forall (l : list uval) (c : C) (p : uval -> bool),
    (forall x, In x l -> apply1 c x = Some (UVB (p x))) ->
    run gen_util_partition_by_predicate [UVL l; UVFun c]
    = Some (UVTup (UVL (filter p l)) (UVL (filter (fun x => negb (p x)) l))).
  Proof.
    intros l c p Hp. unfold ucall, gen_util_partition_by_predicate.
    cbn -[ufor_loop].
    match goal with
    | |- context [ufor_loop A C ?b _ l] =>
        set (body := b);
        destruct (ufor_spec _ (pt_env c l) (pt_step p) body l) with (s := (@nil uval, @nil uval)) (o := @None uval)
          as (o' & Hl)
    end.
    - intros [h m] o it Hin. unfold body. destruct o; ev; rewrite (Hp it Hin); destruct (p it); reflexivity.
    - cbn [pt_env app fst snd] in Hl. rewrite Hl, pt_fold. destruct o'; reflexivity.
  Qed.

  Definition embed_groups (g : list (uval * list uval)) : list (uval * uval) :=
    map (fun kv => (fst kv, UVL (snd kv))) g.

  Lemma dhas_embed_false : forall g k v, keq k k = true ->
    dhas A C keq k (embed_groups g) = false ->
    dappend A C keq k v (dput A C keq k (UVL []) (embed_groups g)) = Some (embed_groups (ginsert keq k v g)).
  Proof.
    induction g as [|[k' vs] g IH]; intros k v Hr Hh; cbn [embed_groups map dhas dput dappend ginsert fst snd] in *.
    - rewrite Hr. reflexivity.
    - destruct (keq k k') eqn:Hk; [discriminate|].
      cbn [dappend]. rewrite Hk. fold (embed_groups g). rewrite (IH k v Hr Hh). reflexivity.
  Qed.

  Lemma dhas_embed_true : forall g k v,
    dhas A C keq k (embed_groups g) = true ->
    dappend A C keq k v (embed_groups g) = Some (embed_groups (ginsert keq k v g)).
  Proof.
    induction g as [|[k' vs] g IH]; intros k v Hh; cbn [embed_groups map dhas dappend ginsert fst snd] in *.
    - discriminate.
    - destruct (keq k k') eqn:Hk.
      + reflexivity.
      + fold (embed_groups g). rewrite (IH k v Hh). reflexivity.
  Qed.

  Definition gb_env (c : C) (kf : uval -> uval) (l0 : list uval) (g : list (uval * list uval)) (o : option uval)
    : uenv A C :=
    [("values", UVL l0); ("key_from_value", UVFun c); ("values_by_key", UVD (embed_groups g))]
    ++ match o with Some it => [("value", it); ("key", kf it)] | None => [] end.

  Lemma group_by_key_tied : forall (l : list uval) (c : C) (kf : uval -> uval),
    (forall x, In x l -> apply1 c x = Some (kf x)) ->
    (forall x, In x l -> keq (kf x) (kf x) = true) ->
    run gen_util_group_by_key [UVL l; UVFun c] = Some (UVD (embed_groups (groups keq kf l))).
  Proof.
    intros l c kf Hk Hrefl. unfold ucall, gen_util_group_by_key, groups.
    cbn -[ufor_loop].
    match goal with
    | |- context [ufor_loop A C ?b _ l] =>
        set (body := b);
        destruct (ufor_spec _ (gb_env c kf l) (fun g v => ginsert keq (kf v) v g) body l)
          with (s := @nil (uval * list uval)) (o := @None uval) as (o' & Hl)
    end.
    - intros g o it Hin. unfold body. destruct o; with_strategy opaque [embed_groups ginsert] ev; rewrite (Hk it Hin);
        with_strategy opaque [embed_groups ginsert] ev;
        (destruct (dhas A C keq (kf it) (embed_groups g)) eqn:Hh;
         [rewrite (dhas_embed_true g (kf it) it Hh) | rewrite (dhas_embed_false g (kf it) it (Hrefl it Hin) Hh)]);
        reflexivity.
    - cbn [gb_env app embed_groups map] in Hl. rewrite Hl. destruct o'; reflexivity.
  Qed.

  Fixpoint nodupk (d : list (uval * uval)) : bool :=
    match d with
    | [] => true
    | (k, _) :: r => forallb (fun kv => negb (keq (fst kv) k)) r && nodupk r
    end.

  Lemma dput_fresh : forall (res : list (uval * uval)) k w,
    forallb (fun kv => negb (keq k (fst kv))) res = true -> dput A C keq k w res = res ++ [(k, w)].
  Proof.
    induction res as [|[k' u] res IH]; intros k w Hf; cbn [dput forallb app fst] in *.
    - reflexivity.
    - apply andb_true_iff in Hf. destruct Hf as [Hk Hf]. apply negb_true_iff in Hk. rewrite Hk.
      rewrite (IH k w Hf). reflexivity.
  Qed.

  Section MapValues.
    Variable c : C.
    Variable g : uval -> uval -> uval.
    Variable d0 : list (uval * uval).

    Definition mv_env (res : list (uval * uval)) (o : option uval) : uenv A C :=
      [("dictionary", UVD d0); ("update_value", UVFun c); ("result", UVD res)]
      ++ match o with Some (UVTup k v) => [("key", k); ("value", v)] | _ => [] end.

    Definition mv_step (res : list (uval * uval)) (kv : uval) : list (uval * uval) :=
      match kv with UVTup k v => dput A C keq k (g k v) res | _ => res end.

    Definition mapped (d : list (uval * uval)) : list (uval * uval) :=
      map (fun kv => (fst kv, g (fst kv) (snd kv))) d.

    (* the keys being distinct, each assignment of the loop appends *)
    Lemma mv_fold : forall (d res : list (uval * uval)),
      nodupk d = true ->
      (forall kv, In kv d -> forallb (fun kv' => negb (keq (fst kv) (fst kv'))) res = true) ->
      fold_left mv_step (map (fun kv => UVTup (fst kv) (snd kv)) d) res = res ++ mapped d.
    Proof.
      induction d as [|[k v] d IH]; intros res Hnd Hfresh; cbn [map mapped fold_left mv_step fst snd].
      - rewrite app_nil_r. reflexivity.
      - rewrite (dput_fresh res k (g k v) (Hfresh (k, v) (or_introl eq_refl))).
        cbn [nodupk] in Hnd. apply andb_true_iff in Hnd. destruct Hnd as [Hk Hnd].
        rewrite IH, <- app_assoc; [reflexivity | exact Hnd |].
        intros kv Hin. rewrite forallb_app, (Hfresh kv (or_intror Hin)). cbn [forallb fst andb].
        rewrite forallb_forall in Hk. rewrite (Hk kv Hin). reflexivity.
    Qed.
  End MapValues.

  Lemma map_dictionary_values_tied : forall (d : list (uval * uval)) (c : C) (g : uval -> uval -> uval),
    nodupk d = true ->
    (forall k v, In (k, v) d -> apply2 c k v = Some (g k v)) ->
    run gen_util_map_dictionary_values [UVD d; UVFun c] = Some (UVD (mapped g d)).
  Proof.
    intros d c g Hnd Hg. unfold ucall, gen_util_map_dictionary_values.
    cbn -[ufor_loop].
    match goal with
    | |- context [ufor_loop A C ?b _ ?items] =>
        set (body := b);
        destruct (ufor_spec _ (mv_env c d) (mv_step g) body items) with (s := @nil (uval * uval)) (o := @None uval)
          as (o' & Hl)
    end.
    - intros res o it Hin. unfold body. apply in_map_iff in Hin. destruct Hin as ([k v] & <- & Hin). cbn [fst snd].
      destruct o as [[]|]; ev; rewrite (Hg k v Hin); reflexivity.
    - cbn [mv_env app] in Hl. rewrite Hl, mv_fold by (exact Hnd || reflexivity).
      destruct o' as [[]|]; reflexivity.
  Qed.

  (** The type-directed wrappers hand the closure [lambda e: isinstance(e, cls)] to the helper. *)
  Lemma first_of_given_type_tied : forall (l cls : uval),
    run gen_util_first_of_given_type [l; cls] = helper "first_match_by_predicate" [l; UVFun (isinst cls)].
  Proof. intros l cls. rewrite ucall_run by reflexivity. ev. destruct (helper _ _); reflexivity. Qed.

  Lemma partition_by_given_type_tied : forall (l cls : uval),
    run gen_util_partition_by_given_type [l; cls] = helper "partition_by_predicate" [l; UVFun (isinst cls)].
  Proof. intros l cls. rewrite ucall_run by reflexivity. ev. destruct (helper _ _); reflexivity. Qed.
End Tie.

Section Wrappers.
  Variable A : Type.
  Variable C : Type.
  Notation uval := (uval A C).
  Variable keq : uval -> uval -> bool.
  Variable apply1 : C -> uval -> option uval.
  Variable apply2 : C -> uval -> uval -> option uval.
  Variable isinst : uval -> C.

  Definition no_helper : string -> list uval -> option uval := fun _ _ => None.
  Definition util_helper (f : string) (args : list uval) : option uval :=
    if String.eqb f "first_match_by_predicate"
    then ucall A C keq apply1 apply2 isinst no_helper gen_util_first_match_by_predicate args
    else if String.eqb f "partition_by_predicate"
    then ucall A C keq apply1 apply2 isinst no_helper gen_util_partition_by_predicate args
    else None.

  Theorem first_of_given_type_model : forall (l : list uval) (cls : uval) (is_cls : uval -> bool),
    (forall x, In x l -> apply1 (isinst cls) x = Some (UVB (is_cls x))) ->
    ucall A C keq apply1 apply2 isinst util_helper gen_util_first_of_given_type [UVL l; cls]
    = Some (match find_first_from is_cls O l with
            | Some (i, x) => UVTup (UVZ (Z.of_nat i)) x
            | None => UVNone
            end).
  Proof.
    intros l cls is_cls H. rewrite first_of_given_type_tied. unfold util_helper. cbn [String.eqb Ascii.eqb Bool.eqb].
    apply first_match_tied. exact H.
  Qed.

  Theorem partition_by_given_type_model : forall (l : list uval) (cls : uval) (is_cls : uval -> bool),
    (forall x, In x l -> apply1 (isinst cls) x = Some (UVB (is_cls x))) ->
    ucall A C keq apply1 apply2 isinst util_helper gen_util_partition_by_given_type [UVL l; cls]
    = Some (UVTup (UVL (filter is_cls l)) (UVL (filter (fun x => negb (is_cls x)) l))).
  Proof.
    intros l cls is_cls H. rewrite partition_by_given_type_tied. unfold util_helper.
    cbn [String.eqb Ascii.eqb Bool.eqb].
    apply partition_tied. exact H.
  Qed.
End Wrappers.

From SM Require Num Syntax Forward Rules SymAst OrchAst StepAst.

Lemma forward_remove_nth_is : forall (X : Type) (i : nat) (l : list X), Forward.remove_nth i l = remove_at i l.
Proof. intros X i l. revert i. induction l as [|x l IH]; intros [|i]; cbn; try reflexivity; try (f_equal; apply IH). Qed.

Lemma rules_group_by_key_is : forall (K V : Type) (keqb : K -> K -> bool) (key : V -> K) (l : list V),
  Rules.group_by_key keqb key l = groups keqb key l.
Proof. reflexivity. Qed.

Lemma symast_without_is : forall (T : Type) (i : nat) (l : list (SymAst.val (T:=T))), SymAst.without i l = remove_at i l.
Proof. intros T i l. revert i. induction l as [|x l IH]; intros [|i]; cbn; try reflexivity; try (f_equal; apply IH). Qed.

Lemma symast_find_first_is : forall (T : Type) (f : SymAst.val (T:=T) -> bool) (i : nat) l,
  SymAst.find_first f i l = find_first_from f i l.
Proof. reflexivity. Qed.

Lemma orchast_owithout_is : forall (T : Type) (i : nat) (l : list (OrchAst.oval (T:=T))), OrchAst.owithout i l = remove_at i l.
Proof. reflexivity. Qed.

Lemma stepast_updated_at_is : forall (X : Type) (l : list X) (i : nat) (y : X), StepAst.updated_at l i y = update_at i y l.
Proof. intros X l. induction l as [|x l IH]; intros [|i] y; cbn; try reflexivity; try (f_equal; apply IH). Qed.
