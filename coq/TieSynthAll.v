(** [Multiply._synthetic_partial] (enumerate / list_without_entry_at), and the forward symbolic
    route as a whole: per class, the translated method computes [synth_fwd] / [synth_unary_formula],
    for every number interface, variable and tree. *)
From Coq Require Import ZArith List Bool String.
From SM Require Import Num Syntax MathFun Eval Forward Synth Rules SymAst SymLemmas SymRun GeneratedSym TieSynth.
Import ListNotations.
Open Scope string_scope.
Open Scope list_scope.

Section Tie.
  Context {T : Type} (N : NumOps T).
  Notation E := (expr T).
  Notation val := (val (T:=T)).

  Lemma synthetic_partial_Multiply_tied : forall l, partial_by N gen_sym_Multiply_synthetic_partial (Mul l).
  Proof.
    intros l v. unfold runf. run_method.
    rewrite (enum_loop_mapi _ (fun i d => Mul (d :: remove_nth i l)) (synth_fwd N v)).
    2: { intros i a. rewrite nat_of_of_nat, without_remove_nth, app_nil_r. cbn [as_exprs].
         rewrite as_exprs_VE. reflexivity. }
    ev_sym. rewrite app_nil_r, as_exprs_VE. reflexivity.
  Qed.

  Definition gen_synth (v : name) (e : E) : option val :=
    match e with
    | Const _ => runf N gen_sym_Constant_synthetic_partial e [VS v]
    | Var _ => runf N gen_sym_Variable_synthetic_partial e [VS v]
    | Add _ => runf N gen_sym_Add_synthetic_partial e [VS v]
    | Mul _ => runf N gen_sym_Multiply_synthetic_partial e [VS v]
    | Minus _ _ => runf N gen_sym_Minus_synthetic_partial e [VS v]
    | Divide _ _ => runf N gen_sym_Divide_synthetic_partial e [VS v]
    | Power _ _ => runf N gen_sym_Power_synthetic_partial e [VS v]
    | _ => runf N gen_sym_UnaryExpression_synthetic_partial e [VS v]
    end.

  (* the formula method the inherited _synthetic_partial dispatches to, per class *)
  Definition gen_formula (e m : E) : option val :=
    match e with
    | Neg _ => runf N gen_sym_Negation_synthetic_partial_formula e [VE m]
    | Recip _ => runf N gen_sym_Reciprocal_synthetic_partial_formula e [VE m]
    | Sin _ => runf N gen_sym_Sine_synthetic_partial_formula e [VE m]
    | Cos _ => runf N gen_sym_Cosine_synthetic_partial_formula e [VE m]
    | NthPow _ _ => runf N gen_sym_NthPower_synthetic_partial_formula e [VE m]
    | NthRoot _ _ => runf N gen_sym_NthRoot_synthetic_partial_formula e [VE m]
    | Exp _ _ => runf N gen_sym_Exponential_synthetic_partial_formula e [VE m]
    | Log _ _ => runf N gen_sym_Logarithm_synthetic_partial_formula e [VE m]
    | _ => None
    end.

  Theorem synth_fwd_tied : forall v e, gen_synth v e = Some (VE (synth_fwd N v e)).
  Proof.
    intros v e. destruct e; unfold gen_synth.
    1: apply synthetic_partial_Constant_tied.
    1: apply synthetic_partial_Variable_tied.
    1: apply synthetic_partial_Add_tied.
    1: apply synthetic_partial_Multiply_tied.
    1: apply synthetic_partial_Minus_tied.
    1: apply synthetic_partial_Divide_tied.
    1: apply synthetic_partial_Power_tied.
    all: eapply synthetic_partial_Unary_tied; reflexivity.
  Qed.

  Theorem synth_formula_tied : forall e m,
    match e with
    | Neg _ | Recip _ | Sin _ | Cos _ | NthPow _ _ | NthRoot _ _ | Exp _ _ | Log _ _ =>
        gen_formula e m = Some (VE (synth_unary_formula N e m))
    | _ => True
    end.
  Proof.
    intros e m. destruct e; try exact I; unfold gen_formula.
    - apply formula_Negation_tied. - apply formula_Reciprocal_tied. - apply formula_Sine_tied.
    - apply formula_Cosine_tied. - apply formula_NthPower_tied. - apply formula_NthRoot_tied.
    - apply formula_Exponential_tied. - apply formula_Logarithm_tied.
  Qed.
End Tie.
