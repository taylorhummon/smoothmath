(** [_compute_synthetic_partials] of each class (GeneratedSymRev.v, run by SymRev with the formula
    oracle of TieSynth) computes one unfolding of [synth_rev] (Synth.v), for every number interface,
    multiplier, accumulator and tree. *)
From Coq Require Import ZArith List Bool String Lia.
From SM Require Import Num Syntax Outcome MathFun Eval Forward Synth Rules SymAst SymLemmas SymRev
                       GeneratedSymRev TieSynth TieSynthAll.
From SM.proofs Require Import SyntaxFacts.
Import ListNotations.
Open Scope string_scope.
Open Scope list_scope.

Section Tie.
  Context {T : Type} (N : NumOps T).
  Notation E := (expr T).
  Notation acc := (saccum (T:=T)).

  Definition runv (f : vfun) (e m : E) (a : acc) : option acc := vcall N (synth_oracle N) f e m a.

  Ltac opq := cbn -[synth_rev sacc_add without nat_of Z.of_nat].

  Lemma symrev_Constant_tied : forall c m a, runv gen_symrev_Constant (Const c) m a = Some (synth_rev N (Const c) m a).
  Proof. reflexivity. Qed.

  Lemma symrev_Variable_tied : forall x m a, runv gen_symrev_Variable (Var x) m a = Some (synth_rev N (Var x) m a).
  Proof. reflexivity. Qed.

  Lemma symrev_Minus_tied : forall u v m a, runv gen_symrev_Minus (Minus u v) m a = Some (synth_rev N (Minus u v) m a).
  Proof. reflexivity. Qed.

  Lemma symrev_Divide_tied : forall u v m a, runv gen_symrev_Divide (Divide u v) m a = Some (synth_rev N (Divide u v) m a).
  Proof. reflexivity. Qed.

  Lemma symrev_Power_tied : forall u v m a, runv gen_symrev_Power (Power u v) m a = Some (synth_rev N (Power u v) m a).
  Proof. reflexivity. Qed.

  Lemma symrev_Unary_tied : forall e x m a, attr (VE e) "_inner" = Some (VE x) ->
    runv gen_symrev_UnaryExpression e m a = Some (synth_rev N e m a).
  Proof. intros e x m a H. destruct e; try discriminate H; reflexivity. Qed.

  (* [Inv]: what the body reads of the environment *)
  Lemma vfor_spec (ms : nat -> E) :
    forall (body : vstate (T:=T) -> nat -> val (T:=T) -> option vstate) (Inv : senv (T:=T) -> Prop),
    (forall r a n e, Inv r -> exists r', Inv r' /\ body (r, a) n (VE e) = Some (r', synth_rev N e (ms n) a)) ->
    forall l n r a, Inv r -> exists r', vfor_loop body n (r, a) (map VE l) = Some (r', synth_rev_seq N ms n l a).
  Proof.
    intros body Inv Hb l. induction l as [|x l IH]; intros n r a Hr; cbn [map vfor_loop synth_rev_seq].
    - exists r. reflexivity.
    - destruct (Hb r a n x Hr) as (r1 & Hr1 & ->). apply IH, Hr1.
  Qed.

  Lemma symrev_Add_tied : forall l m a, runv gen_symrev_Add (Add l) m a = Some (synth_rev N (Add l) m a).
  Proof.
    intros l m a. unfold runv, vcall. opq.
    edestruct vfor_spec with (ms := fun _ : nat => m)
                             (Inv := fun r => slook "multiplier" r = Some (VE m)) as [r' ->].
    - intros r a0 n e Hr. exists (("inner", VE e) :: r). split; [exact Hr|]. cbn [fst snd]. opq. rewrite Hr. reflexivity.
    - reflexivity.
    - opq. rewrite synth_rev_Add. reflexivity.
  Qed.

  Lemma symrev_Mul_tied : forall l m a, runv gen_symrev_Multiply (Mul l) m a = Some (synth_rev N (Mul l) m a).
  Proof.
    intros l m a. unfold runv, vcall. opq.
    edestruct vfor_spec with (ms := fun i => Mul (m :: remove_nth i l))
                             (Inv := fun r => slook "multiplier" r = Some (VE m) /\ slook "self" r = Some (VE (Mul l)))
      as [r' ->].
    - intros r a0 n e [Hm Hs].
      exists (("next_multiplier", VE (Mul (m :: remove_nth n l))) :: ("inner", VE e) :: ("i", VZ (Z.of_nat n)) :: r).
      split; [split; assumption|].
      cbn [fst snd]. opq. rewrite Hm, Hs. opq. rewrite nat_of_of_nat. opq.
      rewrite without_remove_nth, app_nil_r. cbn [as_exprs]. rewrite as_exprs_VE. reflexivity.
    - split; reflexivity.
    - opq. rewrite synth_rev_Mul. reflexivity.
  Qed.

  Definition gen_symrev (e m : E) (a : acc) : option acc :=
    match e with
    | Const _ => runv gen_symrev_Constant e m a
    | Var _ => runv gen_symrev_Variable e m a
    | Add _ => runv gen_symrev_Add e m a
    | Mul _ => runv gen_symrev_Multiply e m a
    | Minus _ _ => runv gen_symrev_Minus e m a
    | Divide _ _ => runv gen_symrev_Divide e m a
    | Power _ _ => runv gen_symrev_Power e m a
    | _ => runv gen_symrev_UnaryExpression e m a
    end.

  Theorem synth_rev_tied : forall e m a, gen_symrev e m a = Some (synth_rev N e m a).
  Proof.
    intros e m a. destruct e; unfold gen_symrev.
    1: apply symrev_Constant_tied.
    1: apply symrev_Variable_tied.
    1: apply symrev_Add_tied.
    1: apply symrev_Mul_tied.
    1: apply symrev_Minus_tied.
    1: apply symrev_Divide_tied.
    1: apply symrev_Power_tied.
    all: eapply symrev_Unary_tied; reflexivity.
  Qed.
End Tie.
