(** The [__init__] methods of every expression class, the operators of Expression and the number
    helpers of utilities.py (GeneratedCtor.v, run by CtorAst) compute the constructor model of
    Objects.v ([mk_*], [op_*], [checked_n]), for every number interface and every argument
    (expressions, numbers, strings, anything else). *)
From Coq Require Import ZArith List Bool String.
From SM Require Import Num Syntax Eval Objects CtorAst GeneratedCtor TieTactics.
Import ListNotations.
Open Scope string_scope.
Open Scope list_scope.

Section Tie.
  Context {T : Type} (N : NumOps T).
  Notation E := (expr T).
  Notation arg := (pyarg (T:=T)).
  Variable is_int : T -> bool.
  Variable is_float : T -> bool.
  Variable float_is_integer : T -> bool.
  Variable round_to_int : T -> Z.
  (* what utilities.integer_from_integral_float means in terms of Python's own number tests *)
  Hypothesis Hnint : forall x, nint N x =
    if is_int x || (is_float x && float_is_integer x) then Some (round_to_int x) else None.

  Notation cval := (cval (T:=T)).
  Definition init (owner : string) (f : cfun) (args : list cval) :=
    cinit N is_int is_float float_is_integer round_to_int owner f args.
  Definition callf (f : cfun) (self : option cval) (args : list cval) :=
    ccall N is_int is_float float_is_integer round_to_int "" f self args.

  (** decoding the fields a constructor assigned into the object they describe *)
  Fixpoint all_args (l : list arg) : option (list E) :=
    match l with
    | [] => Some []
    | AExpr e :: r => match all_args r with Some es => Some (e :: es) | None => None end
    | _ => None
    end.

  Definition decode (cls : string) (fs : cfields (T:=T)) : option E :=
    let inner := match clook "_inner" fs with Some (CVArg (AExpr e)) => Some e | _ => None end in
    let posn := match clook "_parameter" fs with
                | Some (CVInt z) => if Z.ltb 0 z then Some (Z.to_pos z) else None
                | _ => None
                end in
    let base := match clook "_parameter" fs with Some (CVArg (ANum b)) => Some b | _ => None end in
    let two (mk : E -> E -> E) :=
      match clook "_left" fs, clook "_right" fs with
      | Some (CVArg (AExpr a)), Some (CVArg (AExpr b)) => Some (mk a b)
      | _, _ => None
      end in
    let many (mk : list E -> E) :=
      match clook "_inners" fs with
      | Some (CVArgs l) => match all_args l with Some es => Some (mk es) | None => None end
      | _ => None
      end in
    if String.eqb cls "Constant" then
      match clook "value" fs with Some (CVArg (ANum x)) => Some (Const x) | _ => None end
    else if String.eqb cls "Variable" then
      match clook "name" fs with Some (CVArg (AStr true x)) => Some (Var x) | _ => None end
    else if String.eqb cls "Negation" then option_map Neg inner
    else if String.eqb cls "Reciprocal" then option_map Recip inner
    else if String.eqb cls "Sine" then option_map Sin inner
    else if String.eqb cls "Cosine" then option_map Cos inner
    else if String.eqb cls "NthPower" then
      match inner, posn with Some e, Some n => Some (NthPow e n) | _, _ => None end
    else if String.eqb cls "NthRoot" then
      match inner, posn with Some e, Some n => Some (NthRoot e n) | _, _ => None end
    else if String.eqb cls "Exponential" then
      match inner, base with Some e, Some b => Some (Exp e b) | _, _ => None end
    else if String.eqb cls "Logarithm" then
      match inner, base with Some e, Some b => Some (Log e b) | _, _ => None end
    else if String.eqb cls "Minus" then two Minus
    else if String.eqb cls "Divide" then two Divide
    else if String.eqb cls "Power" then two Power
    else if String.eqb cls "Add" then many Add
    else if String.eqb cls "Multiply" then many Mul
    else None.

  Definition built (cls : string) (r : cres (cfields (T:=T))) : cres E :=
    match r with
    | COk fs => match decode cls fs with Some e => COk e | None => CStuck end
    | CRaises => CRaises
    | CStuck => CStuck
    end.

  Definition model (r : result E) : cres E := match r with Ok e => COk e | Raises => CRaises end.

  Lemma Unary_init_tied : forall (a : arg),
    built "Negation" (init "UnaryExpression" gen_ctor_UnaryExpression_init [CVArg a]) = model (mk_unary Neg a) /\
    built "Reciprocal" (init "UnaryExpression" gen_ctor_UnaryExpression_init [CVArg a]) = model (mk_unary Recip a) /\
    built "Sine" (init "UnaryExpression" gen_ctor_UnaryExpression_init [CVArg a]) = model (mk_unary Sin a) /\
    built "Cosine" (init "UnaryExpression" gen_ctor_UnaryExpression_init [CVArg a]) = model (mk_unary Cos a).
  Proof. intros a. destruct a; repeat split; reflexivity. Qed.

  Lemma Binary_init_tied : forall (a b : arg),
    built "Minus" (init "BinaryExpression" gen_ctor_BinaryExpression_init [CVArg a; CVArg b]) = model (mk_binary Minus a b) /\
    built "Divide" (init "BinaryExpression" gen_ctor_BinaryExpression_init [CVArg a; CVArg b]) = model (mk_binary Divide a b) /\
    built "Power" (init "BinaryExpression" gen_ctor_BinaryExpression_init [CVArg a; CVArg b]) = model (mk_binary Power a b).
  Proof. intros a b. destruct a; [destruct b|..]; repeat split; reflexivity. Qed.

  Lemma NAry_loop : forall (body : cstate (T:=T) -> arg -> cres cflow),
    (forall st it, body st it = match it with
                                | AExpr _ => COk (inl (("inner", CVArg it) :: fst st, snd st))
                                | _ => CRaises
                                end) ->
    forall (l : list arg) (r : cenv (T:=T)) (fs : cfields),
    cfor_loop body (r, fs) l
    = match all_args l with
      | Some _ => COk (inl (map (fun a => ("inner", CVArg a)) (rev l) ++ r, fs))
      | None => CRaises
      end.
  Proof.
    intros body Hb. induction l as [|a l IH]; intros r fs; [reflexivity|].
    cbn [cfor_loop all_args]. rewrite Hb. destruct a; cbn [cbind fst snd]; try reflexivity.
    rewrite IH. destruct (all_args l); [|reflexivity].
    cbn [rev]. rewrite map_app, <- app_assoc. reflexivity.
  Qed.

  Lemma all_args_exprs : forall l : list arg,
    all_exprs l = match all_args l with Some es => Ok es | None => Raises end.
  Proof.
    induction l as [|a l IH]; [reflexivity|]. cbn [all_exprs all_args as_expr].
    destruct a; try reflexivity. rewrite IH. destruct (all_args l); reflexivity.
  Qed.

  Lemma NAry_init_spec : forall l : list arg,
    init "NAryExpression" gen_ctor_NAryExpression_init [CVArgs l]
    = match all_args l with
      | Some _ => COk [("_inners", CVArgs l)]
      | None => CRaises
      end.
  Proof.
    intros l. unfold init, cinit. cbn -[all_args].
    erewrite NAry_loop; [| intros st it; destruct it; reflexivity].
    destruct (all_args l); cbn; [|reflexivity].
    (* the loop variable shadows nothing: "args" is found below the bindings of "inner" *)
    assert (Hl : clook "args" (map (fun a : arg => ("inner", CVArg a)) (rev l) ++ [("args", CVArgs l)]) = Some (CVArgs l)).
    { induction (rev l) as [|x xs IHx]; [reflexivity|]. cbn [map app clook]. exact IHx. }
    rewrite Hl. reflexivity.
  Qed.

  Lemma NAry_init_tied : forall (l : list arg),
    built "Add" (init "NAryExpression" gen_ctor_NAryExpression_init [CVArgs l]) = model (mk_nary Add l) /\
    built "Multiply" (init "NAryExpression" gen_ctor_NAryExpression_init [CVArgs l]) = model (mk_nary Mul l).
  Proof.
    intros l. rewrite NAry_init_spec. unfold mk_nary. rewrite all_args_exprs.
    destruct (all_args l) eqn:Ha; [|split; reflexivity].
    split; cbn [built decode String.eqb Ascii.eqb Bool.eqb clook]; rewrite Ha; reflexivity.
  Qed.

  (* the body of ParameterizedUnaryExpression.__init__ is what [super_init] runs for a class below it *)
  Lemma Param_init_spec : forall (a : arg) (w : cval),
    init "ParameterizedUnaryExpression" gen_ctor_ParameterizedUnaryExpression_init [CVArg a; w]
    = super_init "NthPower" [CVArg a; w] [].
  Proof. intros a w. destruct a; reflexivity. Qed.

  Lemma NthPower_init_tied : forall (a n : arg),
    built "NthPower" (init "NthPower" gen_ctor_NthPower_init [CVArg a; CVArg n]) = model (mk_nth_power N a n).
  Proof.
    intros a n. unfold mk_nth_power, checked_n. destruct n as [e'|x|lg nm|]; try reflexivity.
    ev. destruct (nint N x) as [[|z|z]|]; try reflexivity. destruct a; reflexivity.
  Qed.

  Lemma NthRoot_init_tied : forall (a n : arg),
    built "NthRoot" (init "NthRoot" gen_ctor_NthRoot_init [CVArg a; CVArg n]) = model (mk_nth_root N a n).
  Proof.
    intros a n. unfold mk_nth_root, checked_n. destruct n as [e'|x|lg nm|]; try reflexivity.
    ev. destruct (nint N x) as [[|z|z]|]; try reflexivity. destruct a; reflexivity.
  Qed.

  Lemma Exponential_init_tied : forall (a b : arg),
    built "Exponential" (init "Exponential" gen_ctor_Exponential_init [CVArg a; CVArg b]) = model (mk_exponential N a b).
  Proof.
    intros a b. destruct a; try reflexivity; destruct b as [e'|x|lg nm|]; try reflexivity.
    ev. destruct (nleb N x (nofZ N 0)); reflexivity.
  Qed.

  Lemma Logarithm_init_tied : forall (a b : arg),
    built "Logarithm" (init "Logarithm" gen_ctor_Logarithm_init [CVArg a; CVArg b]) = model (mk_logarithm N a b).
  Proof.
    intros a b. destruct a; try reflexivity; destruct b as [e'|x|lg nm|]; try reflexivity.
    ev. destruct (nleb N x (nofZ N 0)); [reflexivity|]. destruct (neqb N x (nofZ N 1)); reflexivity.
  Qed.

  Lemma Variable_init_tied : forall (a : arg),
    built "Variable" (init "Variable" gen_ctor_Variable_init [CVArg a]) = model (mk_variable a).
  Proof. intros a. destruct a as [e|x|lg nm|]; try reflexivity. destruct lg; reflexivity. Qed.

  (* Constant does not validate: for a number it stores it (anything else is outside the model) *)
  Lemma Constant_init_tied : forall x : T,
    built "Constant" (init "Constant" gen_ctor_Constant_init [CVArg (ANum x)]) = model (mk_constant (ANum x)).
  Proof. reflexivity. Qed.

  Definition argres (r : result E) : cres cval :=
    match r with Ok e => COk (CVArg (AExpr e)) | Raises => CRaises end.

  Lemma op_neg_tied : forall a : E, callf gen_ctor_op_neg (Some (CVArg (AExpr a))) [] = argres (op_neg a).
  Proof. reflexivity. Qed.
  Lemma op_add_tied : forall (a : E) (b : arg),
    callf gen_ctor_op_add (Some (CVArg (AExpr a))) [CVArg b] = argres (op_add a b).
  Proof. intros a b. destruct b; reflexivity. Qed.
  Lemma op_sub_tied : forall (a : E) (b : arg),
    callf gen_ctor_op_sub (Some (CVArg (AExpr a))) [CVArg b] = argres (op_sub a b).
  Proof. intros a b. destruct b; reflexivity. Qed.
  Lemma op_mul_tied : forall (a : E) (b : arg),
    callf gen_ctor_op_mul (Some (CVArg (AExpr a))) [CVArg b] = argres (op_mul a b).
  Proof. intros a b. destruct b; reflexivity. Qed.
  Lemma op_truediv_tied : forall (a : E) (b : arg),
    callf gen_ctor_op_truediv (Some (CVArg (AExpr a))) [CVArg b] = argres (op_truediv a b).
  Proof. intros a b. destruct b; reflexivity. Qed.

  Lemma op_pow_tied : forall (a : E) (x : arg),
    callf gen_ctor_op_pow (Some (CVArg (AExpr a))) [CVArg x] = argres (op_pow N a x).
  Proof.
    intros a x. unfold op_pow, mk_nth_power, checked_n. destruct x as [e'|y|lg nm|]; try reflexivity.
    ev. destruct (nint N y) as [[|z|z]|]; reflexivity.
  Qed.

  Lemma is_integer_tied : forall x : T,
    callf gen_ctor_fn_is_integer None [CVArg (ANum x)]
    = COk (CVB (is_int x || (is_float x && float_is_integer x))).
  Proof.
    intros x. ev. destruct (is_int x); [reflexivity|].
    destruct (is_float x); [|reflexivity]. destruct (float_is_integer x); reflexivity.
  Qed.

  Lemma integer_from_integral_float_tied : forall x : T,
    callf gen_ctor_fn_integer_from_integral_float None [CVArg (ANum x)]
    = COk (match nint N x with Some z => CVInt z | None => CVNone end).
  Proof.
    intros x. rewrite Hnint. ev. destruct (is_int x); [reflexivity|].
    destruct (is_float x); [|reflexivity]. destruct (float_is_integer x); reflexivity.
  Qed.

  Lemma is_even_tied : forall z : Z, callf gen_ctor_fn_is_even None [CVInt z] = COk (CVB (Z.even z)).
  Proof. intros z. with_strategy opaque [Z.modulo Z.eqb Z.even] ev. rewrite Zmod_even. destruct (Z.even z); reflexivity. Qed.
  Lemma is_odd_tied : forall z : Z, callf gen_ctor_fn_is_odd None [CVInt z] = COk (CVB (Z.odd z)).
  Proof. intros z. with_strategy opaque [Z.modulo Z.eqb Z.odd] ev. rewrite Zmod_odd. destruct (Z.odd z); reflexivity. Qed.

  Lemma get_variable_name_tied : forall (a : arg),
    callf gen_ctor_fn_get_variable_name None [CVArg a]
    = match a with
      | AStr lg x => COk (CVArg (AStr lg x))
      | AExpr (Var x) => COk (CVArg (AStr true x))
      | _ => CRaises
      end.
  Proof. intros a. destruct a as [e|x|lg nm|]; try reflexivity. destruct e; reflexivity. Qed.

  Lemma ctor_defaults_tied :
    gen_ctor_defaults =
    [("NthPower", []); ("NthRoot", []); ("Exponential", ["math.e"]); ("Logarithm", ["math.e"]); ("Constant", []);
     ("Variable", []); ("UnaryExpression", []); ("BinaryExpression", []); ("NAryExpression", []);
     ("ParameterizedUnaryExpression", [])].
  Proof. reflexivity. Qed.

  (** the two constructors that only store what they are handed: a fresh expression carries its
      variable-name set and both memo flags False (what Stateful.v starts from); a point IS its keyword
      dictionary, unfiltered (what Eval.lookup / point_eqb are stated about) *)
  Lemma plain_inits_tied :
    gen_plain_inits =
    [("Expression", (["self"; "variable_names"],
                     [("_variable_names", "variable_names"); ("_is_fully_reduced", "False"); ("_evaluation_failed", "False")]));
     ("Point", (["self"; "**kwargs"], [("_coordinates", "kwargs")]))].
  Proof. reflexivity. Qed.
End Tie.
