(** Expression._numeric_partials / _synthetic_partials / _normalize (GeneratedEntry.v) compute
    the model's [numeric_partials] (Reverse.v), [synthetic_partials] (Synth.v) and [normalize]
    (Normalize.v), for every iteration order [enum] of the variable-name set. *)
From Coq Require Import ZArith List Bool String Ascii.
From SM Require Import Num Syntax Outcome Eval Reverse Synth Driver Normalize EntryAst GeneratedEntry TieTactics.
Import ListNotations.
Open Scope string_scope.
Open Scope list_scope.

Section Tie.
  Context {T : Type} (N : NumOps T).
  Notation E := (expr T).
  Variable enum : list name.
  Variable fr : E -> E.
  Variable nf : E -> option E.

  (* No class other than Expression defines one of the three methods, _fully_reduce, at or
     _consolidate_expression_lacking_variables: the bodies tied here are the ones every node runs. *)
  Lemma no_overrides : gen_entry_overrides = [].
  Proof. reflexivity. Qed.

  Theorem numeric_partials_tied : forall (self : E) (p : point T),
    nrun N enum p fr nf gen_entry_numeric_partials self
    = (d <- numeric_partials N p self enum ;; Val (NVDictN d)).
  Proof.
    intros self p. unfold numeric_partials. ev.
    destruct (rev N p self (nofZ N 1) []) as [acc| | |]; reflexivity.
  Qed.

  Theorem synthetic_partials_tied : forall (self : E) (p : point T),
    nrun N enum p fr nf gen_entry_synthetic_partials self
    = Val (NVDictE (synthetic_partials N self enum)).
  Proof. intros self p. reflexivity. Qed.

  Theorem normalize_body_tied : forall (self : E) (p : point T),
    nrun N enum p fr nf gen_entry_normalize self = Val (NVEo (nf (fr self))).
  Proof. intros self p. reflexivity. Qed.
End Tie.

(** The oracles [fr] and [nf]: the normal-form pass is tied to its source by TieNorm.nfr_tied,
    _fully_reduce by TieStep.fully_reduce_tied and proofs/History.flags_fully_reduce. *)
Theorem normalize_tied : forall {T} (N : NumOps T) (enum : list name) (fuel d : nat) (self : expr T) (p : point T),
  nrun N enum p (fully_reduce N fuel) (nfr N fuel d) gen_entry_normalize self = Val (NVEo (normalize N fuel d self)).
Proof. intros. rewrite normalize_body_tied. reflexivity. Qed.
